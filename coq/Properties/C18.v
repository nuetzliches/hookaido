(** C18 - configuration changes apply atomically or not at all.
    Statements, each derived from the lemmas of Proofs/ReloadProofs.v, FsAtomicProofs.v and
    ConfigMutationProofs.v.

    Part 1 (failed reload changes nothing): holds for the model of the code as it is.
    Part 2 (each request sees one configuration): the reload side holds since /repo 337ce64
            ([C18_reload_single_write]: every reachable state is all-old or all-new; [C18_code_single_read_atomic]);
            the request side is REFUTED for the code as it is ([C18_per_request_reads_refuted]: several independent
            locked reads per request - known finding); [C18_snapshot_design_atomic] is the repair target;
            [C18_two_write_reload_has_window] is a statement about the pre-fix design only.
    Part 3 (file rewrites): [C18_replace_ok_sound] and companions - every syscall trace the checker accepts
            is crash-atomic; [C18_mutation_validated] - only validated bytes are installed and failures
            put the previous bytes back. *)
From Coq Require Import List Bool Arith NArith.
From HK Require Import Model.Reload Model.FsAtomic Model.ConfigMutation
                       Proofs.ReloadProofs Proofs.FsAtomicProofs Proofs.ConfigMutationProofs.
Import ListNotations.

(** * Part 1 *)

(** For every reader, parser, compiler, restart comparison, secret loader (arbitrary functions), every
    running configuration and every runtime state: if reloadConfig does not report success, the runtime
    state is the one it was given and the configuration it returns is the running one. *)
Theorem C18_failed_reload_frame :
  forall (bytes ast compiled authset : Type)
         (read_file : option bytes) (parse : bytes -> option ast) (compile : ast -> option compiled)
         (requires_restart : compiled -> compiled -> bool) (load_secrets : compiled -> option authset)
         (inherit : authset -> authset -> authset)
         (running : compiled) (r r' : runtime compiled authset) (ret : compiled) (o : outcome),
    reload bytes ast compiled authset read_file parse compile requires_restart load_secrets inherit running r
      = (r', ret, o) ->
    o <> Reloaded -> r' = r /\ ret = running.
Proof. exact failed_reload_frame. Qed.

(** Which exit is taken (order of the tests): an unreadable file, a parse error, a compile error, a
    restart-requiring change and a secret that cannot be loaded each have their own exit, in this order,
    and success needs all five to pass. *)
Theorem C18_reload_outcome_spec :
  forall (bytes ast compiled authset : Type)
         (read_file : option bytes) (parse : bytes -> option ast) (compile : ast -> option compiled)
         (requires_restart : compiled -> compiled -> bool) (load_secrets : compiled -> option authset)
         (inherit : authset -> authset -> authset) (running : compiled) (r : runtime compiled authset),
    let o := snd (reload bytes ast compiled authset read_file parse compile requires_restart load_secrets inherit running r) in
    (o = ReadFailed <-> read_file = None) /\
    (o = ParseFailed <-> exists d, read_file = Some d /\ parse d = None) /\
    (o = CompileFailed <-> exists d cfg, read_file = Some d /\ parse d = Some cfg /\ compile cfg = None) /\
    (o = RestartRequired <-> exists d cfg c, read_file = Some d /\ parse d = Some cfg /\ compile cfg = Some c
                                             /\ requires_restart c running = true) /\
    (o = AuthFailed <-> exists d cfg c, read_file = Some d /\ parse d = Some cfg /\ compile cfg = Some c
                                        /\ requires_restart c running = false /\ load_secrets c = None) /\
    (o = Reloaded <-> exists d cfg c a, read_file = Some d /\ parse d = Some cfg /\ compile cfg = Some c
                                        /\ requires_restart c running = false /\ load_secrets c = Some a).
Proof.
  intros bytes ast compiled authset read_file parse compile requires_restart load_secrets inherit running r.
  cbv zeta.
  pose proof (reload_exits _ _ _ _ read_file parse compile requires_restart load_secrets inherit running r) as X.
  (* left to right, the same for all six: the exit taken carries the answers that led to it, and the
     other five exits return another outcome *)
  refine (conj _ (conj _ (conj _ (conj _ (conj _ _)))));
    (split; [destruct X; simpl; intros E; try discriminate E; repeat esplit; eassumption|]).
  (* right to left: the answers determine the path through [reload] *)
  - intros Hr. unfold reload. rewrite Hr. reflexivity.
  - intros (d & Hr & Hp). unfold reload. rewrite Hr, Hp. reflexivity.
  - intros (d & cfg & Hr & Hp & Hc). unfold reload. rewrite Hr, Hp, Hc. reflexivity.
  - intros (d & cfg & c & Hr & Hp & Hc & Hq). unfold reload. rewrite Hr, Hp, Hc, Hq. reflexivity.
  - intros (d & cfg & c & Hr & Hp & Hc & Hq & Hs). unfold reload. rewrite Hr, Hp, Hc, Hq, Hs. reflexivity.
  - intros (d & cfg & c & a & Hr & Hp & Hc & Hq & Hs). unfold reload. rewrite Hr, Hp, Hc, Hq, Hs. reflexivity.
Qed.

(** A successful reload is ONE critical section that assigns all fourteen fields (authenticator half,
    then table half) and returns the configuration it compiled. *)
Theorem C18_reload_success :
  forall (bytes ast compiled authset : Type)
         (read_file : option bytes) (parse : bytes -> option ast) (compile : ast -> option compiled)
         (requires_restart : compiled -> compiled -> bool) (load_secrets : compiled -> option authset)
         (inherit : authset -> authset -> authset)
         (running : compiled) (r r' : runtime compiled authset) (ret : compiled),
    reload bytes ast compiled authset read_file parse compile requires_restart load_secrets inherit running r
      = (r', ret, Reloaded) ->
    exists d cfg a, read_file = Some d /\ parse d = Some cfg /\ compile cfg = Some ret /\
                    requires_restart ret running = false /\ load_secrets ret = Some a /\
                    r' = write_reload compiled authset inherit a ret r /\
                    r' = write_tables compiled authset ret (write_auth compiled authset inherit a r).
Proof.
  intros bytes ast compiled authset read_file parse compile requires_restart load_secrets inherit
         running r r' ret.
  destruct (reload_exits _ _ _ _ read_file parse compile requires_restart load_secrets inherit running r)
    as [| | | | |d cfg c a Hread Hparse Hcompile Hrestart Hsecrets]; intros [= <- <-].
  exists d, cfg, a. repeat split; assumption.
Qed.

(** Step-list reading: in ANY program whose fallible steps all precede its writes a failure exit is taken
    with no write performed; reloadConfig's step list is such a program, each of its five failure points
    is reachable, none of them has written anything, and success is ONE critical section for both groups. *)
Theorem C18_frame_general : forall fails prog,
  fallible_first prog = true -> snd (exec fails prog) <> None -> fst (exec fails prog) = [].
Proof. exact frame_general. Qed.

Theorem C18_reload_prog_frame :
  fallible_first reload_prog = true /\
  (forall fails p, snd (exec fails reload_prog) = Some p -> fst (exec fails reload_prog) = []) /\
  (forall p, exists fails, exec fails reload_prog = ([], Some p)) /\
  exec (fun _ => false) reload_prog = ([[WAuth; WTables]], None).
Proof.
  refine (conj eq_refl (conj _ (conj _ eq_refl))).
  - intros fails p H. apply frame_general; [reflexivity|]. rewrite H. discriminate.
  - intros p.
    exists (fun q => match p, q with
                     | PRead, PRead | PParse, PParse | PCompile, PCompile
                     | PRestart, PRestart | PSecrets, PSecrets => true
                     | _, _ => false end).
    destruct p; reflexivity.
Qed.

(** * Part 2 *)

(** [no_mixture shape reqs] := for every number of reloads and every schedule, every request of [reqs]
    reads one version.

    The reload side (since /repo 337ce64): reloadConfig publishes in ONE critical section.  For every number
    of reloads, every set of requests and every schedule, the runtime state a request step can read is
    [uniform v] - all fourteen fields from the same configuration, v = 0 (start-up) or the v-th reload.
    No state between the two halves of a reload is reachable. *)
Theorem C18_reload_single_write : forall n reqs sched,
  exists v, v <= n /\ s_rt (run_schedule code_shape n reqs sched) = uniform v.
Proof.
  intros n reqs sched.
  destruct (run_winv code_shape n reqs sched (sections_ok_single _)) as [Hu _].
  destruct (Hu _ (or_introl eq_refl)) as [v [Hv Hg]]. exists v. split; [exact Hv|].
  apply uniform_ext. intros f. apply Hg, code_fields_complete.
Qed.

(** Hence every handler that consults the state ONCE - whichever fields it reads, also across the two
    groups (authorizePull, authorizeWorker) - is served under one configuration, for all schedules. *)
Theorem C18_code_single_read_atomic : forall reqs,
  (forall r, In r reqs -> length r <= 1) ->
  forall n sched, P_no_mixture (observations code_shape n reqs sched) = true.
Proof.
  intros reqs H. apply snapshot_design_atomic; [|exact H].
  intros r c f _ _ _. apply code_fields_complete.
Qed.

(** About the design BEFORE 337ce64 only (two critical sections: loadAuth's, then updateAll's) - a
    hypothetical reload shape, not the code: it has a window in which even a request of ONE locked read
    sees two versions; the same schedules are harmless for the code as it is. *)
Theorem C18_two_write_reload_has_window :
  ~ no_mixture two_write_shape [[CAuthorizePull]]
  /\ observations two_write_shape 1 [[CAuthorizePull]] [AReload; AReq 0; AReload]
     = [[(CAuthorizePull, FPullAuth, 1); (CAuthorizePull, FPullByRoute, 1); (CAuthorizePull, FPathToRoute, 0)]]
  /\ P_no_mixture (observations two_write_shape 1 [ingress_request] ([AReload] ++ repeat (AReq 0) 8 ++ [AReload])) = false
  /\ P_no_mixture (observations code_shape 1 [[CAuthorizePull]] [AReload; AReq 0; AReload]) = true
  /\ P_no_mixture (observations code_shape 1 [ingress_request] ([AReload] ++ repeat (AReq 0) 8 ++ [AReload])) = true.
Proof.
  split; [apply (mixture_witness _ _ 1 [AReload; AReq 0; AReload]); reflexivity|].
  repeat apply conj; reflexivity.
Qed.

(** The request side, REFUTED for the code as it is: a request performs several independent locked reads.
    Ingress (every position inside the request), pull and admin requests. *)
Theorem C18_per_request_reads_refuted :
  ~ no_mixture code_shape [ingress_request]
  /\ map versions_seen (observations code_shape 1 [ingress_request]
                                     ([AReq 0] ++ [AReload] ++ repeat (AReq 0) 7))
     = [[0; 1; 1; 1; 1; 1; 1; 1; 1]]
  /\ forallb (fun k => negb (P_no_mixture (observations code_shape 1 [ingress_request]
                                              (repeat (AReq 0) k ++ [AReload] ++ repeat (AReq 0) (8 - k)))))
             [1; 2; 3; 4; 5; 6; 7] = true
  /\ ~ no_mixture code_shape [pull_request]
  /\ ~ no_mixture code_shape [admin_publish_request].
Proof.
  split; [exact per_request_reads_refuted|]. split; [reflexivity|]. split; [reflexivity|]. split.
  - apply (mixture_witness _ _ 1 [AReq 0; AReload; AReq 0]). reflexivity.
  - apply (mixture_witness _ _ 1 [AReq 0; AReq 0; AReload; AReq 0]). reflexivity.
Qed.

Theorem C18_code_no_mixture_refuted : ~ no_mixture code_shape [ingress_request; pull_request].
Proof. apply (mixture_witness _ _ 1 [AReq 0; AReload; AReq 0; AReq 0; AReq 0]). reflexivity. Qed.

(** The repair target: if a reload is ONE critical section [w] that assigns every field any handler
    reads (true of the code now), and every request performs at most ONE locked read (not yet), then for all
    numbers of reloads, all sets of requests and all schedules every request is served under one version. *)
Theorem C18_snapshot_design_atomic : forall (w : list field) (reqs : list request),
  (forall r c f, In r reqs -> In c r -> In f (fields_of c) -> In f w) ->
  (forall r, In r reqs -> length r <= 1) ->
  forall n sched, P_no_mixture (observations [w] n reqs sched) = true.
Proof. exact snapshot_design_atomic. Qed.

Theorem C18_snapshot_requests_atomic : forall k n sched,
  P_no_mixture (observations single_write_shape n (repeat [CSnapshot] k) sched) = true.
Proof.
  intros k. apply snapshot_design_atomic.
  - intros r c f _ _ _. apply all_fields_complete.
  - intros r Hr. apply repeat_spec in Hr. subst r. apply le_n.
Qed.

(** The monitor predicate means what it says. *)
Theorem C18_one_version_spec : forall o : obs,
  one_version o = true <-> exists v, forall x, In x o -> snd x = v.
Proof. exact one_version_spec. Qed.

(** * Part 3 *)

(** If the checker accepts the syscall trace [tr] as a replacement of P by NEW, then from every start
    state in which P durably holds [old] (or is absent), after every prefix of [tr] (= crash point),
    for every number [k] of journalled name-space operations that reached the disk and every choice [ch]
    of how much of each file's pending data did (including a torn last write), P reads back as exactly
    [old] or exactly NEW. *)
Theorem C18_replace_ok_sound : forall P NEW old tr s0,
  init_ok s0 P old -> replace_ok P NEW tr = true ->
  forall n k ch,
    crash_read (run s0 (firstn n tr)) k ch P = old \/
    crash_read (run s0 (firstn n tr)) k ch P = Some NEW.
Proof.
  intros P NEW old tr s0 Hi Hok n k ch.
  destruct (proj1 (replace_ok_inv P NEW old tr s0 Hi Hok) n) as [c HI].
  exact (inv_crash P NEW old c _ HI k ch).
Qed.

(** Once the call has returned NEW is durable, and the state is again a start state. *)
Theorem C18_replace_ok_durable : forall P NEW old tr s0,
  init_ok s0 P old -> replace_ok P NEW tr = true ->
  init_ok (run s0 tr) P (Some NEW) /\
  forall k ch, crash_read (run s0 tr) k ch P = Some NEW.
Proof.
  intros P NEW old tr s0 Hi Hok. destruct (replace_ok_inv P NEW old tr s0 Hi Hok) as [_ Hd].
  split; [exact Hd|]. intros k ch. apply init_ok_crash, Hd.
Qed.

(** A concurrent reader of the file (the --watch reload) sees the complete old or new content too. *)
Theorem C18_replace_ok_reader_atomic : forall P NEW old tr s0,
  init_ok s0 P old -> replace_ok P NEW tr = true ->
  forall n, read_vol (run s0 (firstn n tr)) P = old \/ read_vol (run s0 (firstn n tr)) P = Some NEW.
Proof.
  intros P NEW old tr s0 Hi Hok n. rewrite read_vol_is_crash.
  apply (C18_replace_ok_sound P NEW old tr s0 Hi Hok).
Qed.

(** Apply then roll back: OLD or NEW at every crash point of the two replacements, OLD at the end. *)
Theorem C18_apply_then_rollback_sound : forall P OLD NEW tr1 tr2 s0,
  init_ok s0 P (Some OLD) -> replace_ok P NEW tr1 = true -> replace_ok P OLD tr2 = true ->
  (forall n k ch, crash_read (run s0 (firstn n (tr1 ++ tr2))) k ch P = Some OLD \/
                  crash_read (run s0 (firstn n (tr1 ++ tr2))) k ch P = Some NEW)
  /\ forall k ch, crash_read (run s0 (tr1 ++ tr2)) k ch P = Some OLD.
Proof.
  intros P OLD NEW tr1 tr2 s0 Hi H1 H2.
  destruct (C18_replace_ok_durable P NEW (Some OLD) tr1 s0 Hi H1) as [Hi1 _]. split.
  - intros n k ch. destruct (firstn_app_cases n tr1 tr2) as [->|[m ->]].
    + apply (C18_replace_ok_sound P NEW (Some OLD) tr1 s0 Hi H1).
    + rewrite run_app.
      destruct (C18_replace_ok_sound P OLD (Some NEW) tr2 _ Hi1 H2 m k ch) as [->| ->]; auto.
  - intros k ch. rewrite run_app. apply (C18_replace_ok_durable P OLD (Some NEW) tr2 _ Hi1 H2).
Qed.

(** Non-vacuity of the checker and of the threat model: the trace shape of writeFileAtomic is accepted;
    traces without fsync before rename, with the temp file in another directory, with a partial write,
    with a write after the fsync, without the directory fsync, writing in place, with a stray mutating
    call, renaming elsewhere, or empty are rejected; and the rejected shapes really lose data here. *)
Theorem C18_checker_examples :
  replace_ok exP exNEW good_trace = true
  /\ map (replace_ok exP exNEW)
         [no_fsync_trace; other_dir_trace; partial_write_trace; write_after_fsync_trace;
          no_dir_fsync_trace; in_place_trace; stray_op_trace; wrong_target_trace; []]
     = [false; false; false; false; false; false; false; false; false]
  /\ init_ok exS0 exP (Some exOLD)
  /\ crash_read (run exS0 no_fsync_trace) 2 (fun _ => (0, 0)) exP = Some []
  /\ crash_read (run exS0 (firstn 2 in_place_trace)) 0 (fun _ => (1, 0)) exP = Some []
  /\ crash_read (run exS0 no_dir_fsync_trace) 0 (fun _ => (0, 0)) exP = Some exOLD.
Proof.
  split; [exact good_trace_accepted|]. split; [exact bad_traces_rejected|]. split.
  - split; [reflexivity|]. split; [|exists 0; split; reflexivity].
    intros p i. simpl. destruct (path_eqb p exP); [intros [= <-]; apply le_n|discriminate].
  - exact (conj (proj1 no_fsync_loses_data) (conj (proj1 in_place_is_not_atomic) no_dir_fsync_not_durable)).
Qed.

(** Validated mutation (mutateManagedEndpointConfig, toolConfigApply, management_endpoint_* through it),
    for every validity oracle, flavour, previous content, candidate and failure oracle. *)
Theorem C18_mutation_validated : forall valid fl file cand o,
  let '(file', res, writes) := mutate valid fl file cand o in
  (forall w, In w writes -> (w = Some cand /\ valid cand = true) \/ w = file)
  /\ (file' = file \/ (file' = Some cand /\ valid cand = true))
  /\ (res = MApplied -> file' = Some cand /\ valid cand = true /\ o_write o = true
                        /\ (fl = FApp -> o_post o = true /\ o_reload o = true)
                        /\ (fl = FMcpWriteAndReload -> o_reload o = true))
  /\ (res <> MApplied -> o_rollback o = true -> file' = file)
  /\ (valid cand = false -> file' = file /\ writes = [] /\ res = MInvalid).
Proof. exact mutation_validated. Qed.

Print Assumptions C18_failed_reload_frame.
Print Assumptions C18_reload_outcome_spec.
Print Assumptions C18_reload_success.
Print Assumptions C18_frame_general.
Print Assumptions C18_reload_prog_frame.
Print Assumptions C18_reload_single_write.
Print Assumptions C18_code_single_read_atomic.
Print Assumptions C18_two_write_reload_has_window.
Print Assumptions C18_per_request_reads_refuted.
Print Assumptions C18_code_no_mixture_refuted.
Print Assumptions C18_snapshot_design_atomic.
Print Assumptions C18_snapshot_requests_atomic.
Print Assumptions C18_one_version_spec.
Print Assumptions C18_replace_ok_sound.
Print Assumptions C18_replace_ok_durable.
Print Assumptions C18_replace_ok_reader_atomic.
Print Assumptions C18_apply_then_rollback_sound.
Print Assumptions C18_checker_examples.
Print Assumptions C18_mutation_validated.
