(** C14, MCP tools in Admin-proxy mode (Model/ManageProxy.v): what the tool sends, what it reports, what a
    refusal does, and how often the store can be touched by one call whatever the transport does. *)
From Coq Require Import List ZArith NArith Bool Lia.
From HK Require Import Gen.AdminProxy Model.Queue Model.Headers Model.Publish Model.ManageGlue Model.ManageProxy
  Proofs.HeadersProofs Proofs.ManageGlueProofs.
Import ListNotations.
Open Scope Z_scope.

(** the statuses shouldRetryAdminProxyCall retries, as read from the source *)
Lemma retry_status_iff st :
  retry_status st = true <-> st = 408 \/ st = 429 \/ st = 500 \/ st = 502 \/ st = 503 \/ st = 504.
Proof.
  unfold retry_status, proxy_retry_statuses, ap_retry_statuses. rewrite existsb_exists. simpl. split.
  - intros [x [Hin E]]. apply Z.eqb_eq in E. lia.
  - intros H. exists st. split; [lia | apply Z.eqb_refl].
Qed.

(** one attempt: the store it leaves, how often the handler served it (0 or 1), what is put to [should_retry]
    ([None]: final without asking), and what the caller gets if the loop stops here *)
Definition attempt (ft : fault) (h : handler) (s : state) : state * nat * option (option Z) * cres :=
  let '(s1, r) := h s in
  let ask := if ok_status (status_of r) then None else Some (Some (status_of r)) in
  match ft with
  | FtPass => (s1, 1%nat, ask, CResp r)
  | FtGarbled => (s1, 1%nat, ask, if ok_status (status_of r) then CErr else CResp r)
  | FtNoReach => (s, 0%nat, Some None, CErr)
  | FtLost => (s1, 1%nat, Some None, CErr)
  | FtStatus st => (s, 0%nat, Some (Some st), CResp (HErr st (GPub CStoreUnavailable)))
  end.

Lemma call_admin_S left fs h s :
  call_admin (S left) fs h s =
  let '(s1, served, ask, c) := attempt (hd FtPass fs) h s in
  if match ask with Some st => should_retry (match left with O => true | _ => false end) st | None => false end
  then let '(s2, c2, (sent, seen)) := call_admin left (tl fs) h s1 in (s2, c2, (S sent, (served + seen)%nat))
  else (s1, c, (1%nat, served)).
Proof.
  simpl. unfold attempt. destruct (hd FtPass fs); destruct (h s) as [s1 r]; try reflexivity;
    destruct (ok_status (status_of r)); reflexivity.
Qed.

Lemma attempt_effect ft h s :
  let '(s1, served, _, c) := attempt ft h s in
  (served = 0%nat /\ s1 = s /\ (c = CErr \/ exists st, c = CResp (HErr st (GPub CStoreUnavailable))))
  \/ (served = 1%nat /\ s1 = fst (h s) /\ (c = CErr \/ c = CResp (snd (h s)))).
Proof.
  unfold attempt. destruct (h s) as [s1 r]. destruct ft; simpl; try destruct (ok_status (status_of r)); eauto 8.
Qed.

Lemma call_admin_bounds left : forall fs h s s' c sent seen,
  call_admin left fs h s = (s', c, (sent, seen)) -> (sent <= left)%nat /\ (seen <= sent)%nat.
Proof.
  induction left as [|left IH]; intros fs h s s' c sent seen H; [injection H as _ _ <- <-; lia|].
  rewrite call_admin_S in H. pose proof (attempt_effect (hd FtPass fs) h s) as A.
  destruct (attempt (hd FtPass fs) h s) as [[[s1 served] ask] c1].
  assert (Sv : (served <= 1)%nat) by (destruct A as [[-> _] | [-> _]]; lia).
  destruct (match ask with Some st => should_retry _ st | None => false end).
  - destruct (call_admin left (tl fs) h s1) as [[s2 c2] [sent2 seen2]] eqn:E. apply IH in E.
    injection H as _ _ <- <-. lia.
  - injection H as _ _ <- <-. lia.
Qed.

Lemma call_admin_read_only left : forall fs h s,
  (forall s0, fst (h s0) = s0) -> fst (fst (call_admin left fs h s)) = s.
Proof.
  induction left as [|left IH]; intros fs h s RO; [reflexivity|].
  rewrite call_admin_S. pose proof (attempt_effect (hd FtPass fs) h s) as A.
  destruct (attempt (hd FtPass fs) h s) as [[[s1 served] ask] c1].
  assert (s1 = s) as -> by (destruct A as [[_ [-> _]] | [_ [-> _]]]; [reflexivity | apply RO]).
  destruct (match ask with Some st => should_retry _ st | None => false end); [|reflexivity].
  specialize (IH (tl fs) h s RO). destruct (call_admin left (tl fs) h s) as [[s2 c2] [sent2 seen2]]. exact IH.
Qed.

(** a write gets one attempt: whatever came of it is final *)
Lemma call_admin_write fs h s :
  call_admin (max_attempts MPost) fs h s
  = let '(s1, served, _, c) := attempt (hd FtPass fs) h s in (s1, c, (1%nat, served)).
Proof.
  change (max_attempts MPost) with 1%nat. rewrite call_admin_S.
  destruct (attempt (hd FtPass fs) h s) as [[[s1 served] ask] c]. destruct ask; reflexivity.
Qed.

Lemma tool_result_ok c r : tool_result c = r -> status_of r = 200 -> c = CResp r /\ (forall st g, r <> HErr st g).
Proof.
  destruct c as [|r0]; simpl; intros E S; subst r; [discriminate|].
  destruct r0; simpl in *; try discriminate; split; try reflexivity; intros; discriminate.
Qed.

Lemma tool_result_error c : status_of (tool_result c) <> 200 -> tool_result c = HErr 0 GToolError.
Proof. destruct c as [|r0]; simpl; [reflexivity|]. destruct r0; simpl; intros H; try reflexivity; contradiction. Qed.

Lemma proxy_request_reject e now t fs s :
  proxy_decide e t = PReject -> proxy_request e now t fs s = (s, HErr 0 GToolError, (O, O)).
Proof. intros H. unfold proxy_request. rewrite H. reflexivity. Qed.

Lemma proxy_request_send e now t fs s q :
  proxy_decide e t = PSend q ->
  proxy_request e now t fs s =
  (let '(s1, served, _, c) := attempt (hd FtPass fs) (sent_handler (xe_cfg e) now q) s in
   (s1, tool_result c, (1%nat, served))).
Proof.
  intros H. unfold proxy_request. rewrite H, call_admin_write.
  destruct (attempt (hd FtPass fs) (sent_handler (xe_cfg e) now q) s) as [[[s1 served] ask] c]. reflexivity.
Qed.

Lemma proxy_request_sent e now t fs s q :
  proxy_decide e t = PSend q ->
  let h := sent_handler (xe_cfg e) now q in
  let '(s', r, (sent, seen)) := proxy_request e now t fs s in
  sent = 1%nat
  /\ ((seen = 0%nat /\ s' = s /\ r = HErr 0 GToolError)
      \/ (seen = 1%nat /\ s' = fst (h s) /\ (r = HErr 0 GToolError \/ r = tool_result (CResp (snd (h s)))))).
Proof.
  intros D. rewrite (proxy_request_send _ _ _ _ _ _ D).
  pose proof (attempt_effect (hd FtPass fs) (sent_handler (xe_cfg e) now q) s) as A.
  destruct (attempt (hd FtPass fs) (sent_handler (xe_cfg e) now q) s) as [[[s1 served] ask] c].
  destruct A as [[-> [-> [-> | [st ->]]]] | [-> [-> [-> | ->]]]]; simpl; auto 6.
Qed.

(** what the Admin server's parseManageIDs makes of the list the tool sends: the same list (the two caps are equal) *)
Lemma admin_reparses_ids raw idl : mcp_parse_ids raw = Some idl -> parse_manage_ids (store_ids idl) = Some idl.
Proof. apply parse_ids_with_reparse. Qed.

(** what the Admin server's parseMessageManageFilter makes of the payload the tool builds: the parsed filter of the
    tool, selector removed, route kept (global endpoint) or removed (scoped endpoint, which pins it itself) *)
Lemma admin_reparses_filter k a p wr :
  mcp_parse_filter (mcp_filter_tool_states k) a = Some p ->
  parse_filter (filter_endpoint_states k) (body_of_pfilt wr p)
  = Some (mkPF (if wr then pf_route p else RSBlank) (pf_target p) (pf_state p) (pf_limit p) (pf_before p) (pf_preview p) LBlank LBlank).
Proof.
  intros P. destruct (mcp_parse_filter_some _ _ _ P) as (_ & _ & Lm & Ps & _ & _ & Ens & _).
  destruct (mcp_limit_reaches_store _ _ Lm) as [_ [_ R]]. rewrite filter_states_same in Ps.
  unfold parse_filter, body_of_pfilt. simpl. rewrite (admin_limit_in_range _ R), (parse_state_reparse _ _ _ Ps).
  replace (time_of (match pf_before p with Some t => TOk t | None => TAbsent end)) with (Some (pf_before p))
    by (destruct (pf_before p); reflexivity).
  f_equal. f_equal.
  - destruct wr; [|reflexivity]. destruct (pf_route p); try reflexivity. contradiction.
  - destruct (pf_target p); reflexivity.
Qed.

(** what the request carries of the audit arguments *)
Definition audit_carried (e : xenv) (a : paudit) (q : hreq) : Prop :=
  h_post q = true /\ h_auth q = xe_auth e
  /\ a_reason (h_audit q) = pa_reason a /\ pa_reason a <> []
  /\ a_reqid (h_audit q) = pa_reqid a
  /\ a_actor (h_audit q) = (if is_nil (pa_actor a) then xe_principal e else pa_actor a)
  /\ (xe_principal e <> [] -> a_actor (h_audit q) = xe_principal e).

Lemma sent_audit_carried e a rq :
  parse_maudit (ma_of (xe_principal e) a) = Some rq -> audit_carried e a (sent_hreq e a) /\ rq = pa_reqid a.
Proof.
  unfold parse_maudit, ma_of. simpl. intros H.
  destruct (pa_wf a); simpl in H; [|discriminate].
  destruct (pa_reason a) as [|b0 bt] eqn:Er; simpl in H; [discriminate|].
  destruct (is_nil (pa_actor a) || is_nil (xe_principal e) || beq (pa_actor a) (xe_principal e)) eqn:Ea; simpl in H; [|discriminate].
  injection H as <-. split; [|reflexivity].
  unfold audit_carried, sent_hreq, sent_audit. simpl. rewrite Er. repeat split; try discriminate.
  (* an actor that is given is the principal *)
  intros Pn. destruct (pa_actor a) as [|c0 ct]; simpl in *; [reflexivity|].
  destruct (xe_principal e) as [|p0 pt]; [contradiction|]. apply HeadersProofs.beq_eq. exact Ea.
Qed.

(** The by-id tools: both modes make the same checks of the arguments; then the proxy leaves the managed-route rule
    to the Admin server, while the direct mode applies it itself. *)
Lemma ids_tool_cases e k a :
  (proxy_decide_ids e k a = PReject /\ forall ms, mcp_decide_ids (direct_env e) k (mi_of (xe_principal e) a) ms = mreject)
  \/ exists rq raw idl,
       xe_gate e = true /\ parse_maudit (ma_of (xe_principal e) (xi_audit a)) = Some rq
       /\ xi_ids a = IBIds raw /\ mcp_parse_ids raw = Some idl
       /\ proxy_decide_ids e k a
          = (if xe_allowed e then PSend (mkSent (EpIds k) (sent_hreq e (xi_audit a)) (BIds (IBIds (store_ids idl))))
             else PReject)
       /\ forall ms, mcp_decide_ids (direct_env e) k (mi_of (xe_principal e) a) ms
          = (if any_managed (xe_cfg e) && touches_managed (xe_cfg e) (mcp_ids_tool_states k) idl ms
             then if mcp_managed_policy_ok (xe_cfg e) (xe_principal e) rq then DCall (SCIds k (store_ids idl)) else mreject
             else DCall (SCIds k (store_ids idl))).
Proof.
  unfold proxy_decide_ids, mcp_decide_ids, direct_env, mi_of. simpl.
  destruct (xe_gate e); simpl; [|left; split; reflexivity].
  destruct (xi_unknown a); [left; split; reflexivity|].
  destruct (parse_maudit (ma_of (xe_principal e) (xi_audit a))) as [rq|]; [|left; split; reflexivity].
  destruct (xi_ids a) as [|raw]; [left; split; reflexivity|].
  destruct (mcp_parse_ids raw) as [idl|] eqn:P; [|left; split; reflexivity].
  right. exists rq, raw, idl. destruct (xe_allowed e); repeat split; reflexivity || exact P.
Qed.

(** an application / endpoint pair is a selector (both labels valid), or every match on such a pair takes its default *)
Lemma selector_cases (a b : lsel) :
  (exists x y, a = LValid x /\ b = LValid y)
  \/ forall (T : Type) (F : N -> N -> T) (G : T), match a, b with LValid x, LValid y => F x y | _, _ => G end = G.
Proof. destruct a as [| |x]; destruct b as [| |y]; eauto. Qed.

(** The by-filter tools: both modes make the same checks, including the managed-route rule, so they refuse together;
    otherwise the proxy sends the parsed filter to the global endpoint, route kept, or - with a selector - to the
    endpoint-scoped path, which pins the route itself. *)
Lemma filter_tool_cases e k a :
  let x := xe_cfg e in
  let direct := mcp_decide_filter (direct_env e) k (mf_of (xe_principal e) a) in
  (proxy_decide_filter e k a = PReject /\ direct = mreject)
  \/ exists rq p route ep with_route,
       xe_gate e = true /\ parse_maudit (ma_of (xe_principal e) (xf_audit a)) = Some rq
       /\ mcp_parse_filter (mcp_filter_tool_states k) (mf_of (xe_principal e) a) = Some p
       /\ direct = DCall (SCFilter k (mk_store_filt route p))
       /\ proxy_decide_filter e k a
          = (if xe_allowed e
             then PSend (mkSent ep (sent_hreq e (xf_audit a)) (BFilter (FBOk (body_of_pfilt with_route p))))
             else PReject)
       /\ ((ep = EpFilter k /\ with_route = true /\ route = opt_route (pf_route p)
            /\ match route with None => any_managed x | Some r => route_is_managed x r end = false)
           \/ exists ap en rt,
                pf_app p = LValid ap /\ pf_ep p = LValid en /\ find_endpoint x ap en = Some rt
                /\ mcp_managed_policy_ok x (xe_principal e) rq = true
                /\ ep = EpScopedFilter k (LValid ap) (LValid en) /\ with_route = false /\ route = Some (r_path rt)).
Proof.
  cbv zeta. unfold proxy_decide_filter, mcp_decide_filter, direct_env. simpl.
  destruct (xe_gate e); simpl; [|left; split; reflexivity].
  destruct (parse_maudit (ma_of (xe_principal e) (xf_audit a))) as [rq|]; [|left; split; reflexivity].
  destruct (mcp_parse_filter (mcp_filter_tool_states k) (mf_of (xe_principal e) a)) as [p|]; [|left; split; reflexivity].
  destruct (selector_cases (pf_app p) (pf_ep p)) as [(ap & en & Eapp & Een) | Hg].
  - (* a selector: the endpoint-scoped path *)
    rewrite Eapp, Een.
    destruct (mcp_managed_policy_ok (xe_cfg e) (xe_principal e) rq) eqn:Pol; simpl; [|left; split; reflexivity].
    destruct (find_endpoint (xe_cfg e) ap en) as [rt|] eqn:F; [|left; split; reflexivity].
    right. exists rq, p, (Some (r_path rt)), (EpScopedFilter k (LValid ap) (LValid en)), false.
    split; [reflexivity|]. split; [reflexivity|]. split; [reflexivity|]. split; [reflexivity|].
    split; [destruct (xe_allowed e); reflexivity|].
    right. exists ap, en, rt. repeat split; assumption.
  - (* no selector: the global endpoint, unless the route (or, without one, some route) is managed *)
    rewrite !Hg.
    destruct (match opt_route (pf_route p) with None => any_managed (xe_cfg e) | Some r => route_is_managed (xe_cfg e) r end) eqn:Bl;
      [left; destruct (opt_route (pf_route p)); rewrite Bl; split; reflexivity|].
    right. exists rq, p, (opt_route (pf_route p)), (EpFilter k), true.
    split; [reflexivity|]. split; [reflexivity|]. split; [reflexivity|].
    split; [destruct (opt_route (pf_route p)); rewrite Bl; reflexivity|].
    split; [destruct (xe_allowed e); reflexivity|].
    left. repeat split. exact Bl.
Qed.

Theorem refusals e now t fs s :
  (* refused by the tool: nothing is sent, nothing changes, the result is an error *)
  (proxy_decide e t = PReject -> proxy_request e now t fs s = (s, HErr 0 GToolError, (O, O)))
  (* refused by the Admin API (400 / 401 / 404 / 405): nothing changes whatever else the transport does, the result is an error *)
  /\ (forall q st c, proxy_decide e t = PSend q -> snd (sent_handler (xe_cfg e) now q s) = HErr st c ->
        exists n, proxy_request e now t fs s = (s, HErr 0 GToolError, n))
  (* whatever happened: a result that is not a success is the error result *)
  /\ (forall s' r n, proxy_request e now t fs s = (s', r, n) -> status_of r <> 200 -> r = HErr 0 GToolError).
Proof.
  split; [apply proxy_request_reject|]. split.
  - intros q st c D Hh. pose proof (proxy_request_sent e now t fs s q D) as X.
    (* the handler refused: it left the store alone, and its answer is no success either *)
    assert (Hs : fst (sent_handler (xe_cfg e) now q s) = s).
    { destruct (sent_handler (xe_cfg e) now q s) as [sa ra] eqn:Eh. simpl in Hh. subst ra. apply (serve_inv _ _ _ _ _ Eh). }
    destruct (proxy_request e now t fs s) as [[s' r] [sent seen]]. cbv zeta in X. rewrite Hs, Hh in X. exists (sent, seen).
    destruct X as [_ [[_ [-> ->]] | [_ [-> [-> | ->]]]]]; reflexivity.
  - intros s' r n H Hs. destruct (proxy_decide e t) as [|q] eqn:D.
    + rewrite (proxy_request_reject _ _ _ _ _ D) in H. injection H as _ <- _. reflexivity.
    + pose proof (proxy_request_sent e now t fs s q D) as X. rewrite H in X. destruct n as [sent seen].
      destruct X as [_ [[_ [_ ->]] | [_ [_ [-> | ->]]]]]; try reflexivity. apply tool_result_error. exact Hs.
Qed.

(** the audit strings of a call as parseMutationAuditArgs leaves them: trimmed (parseString) and within the caps
    (validateMutationAuditFields) *)
Definition audit_normal (principal : bytes) (a : paudit) : Prop :=
  trim_space (pa_reason a) = pa_reason a /\ trim_space (pa_reqid a) = pa_reqid a /\ trim_space principal = principal
  /\ blen (pa_reason a) <= max_reason_len /\ blen principal <= max_actor_len /\ blen (pa_reqid a) <= max_reqid_len.

Lemma touches_any_managed x st idl ms : touches_managed x st idl ms = true -> any_managed x = true.
Proof.
  unfold touches_managed, any_managed. intros H. apply existsb_exists in H. destruct H as [i [_ H]].
  destruct (find_id i ms) as [m|]; [|discriminate]. apply andb_true_iff in H. destruct H as [_ H].
  unfold route_is_managed in H. apply existsb_exists in H. destruct H as [rt [Hin H]]. apply andb_true_iff in H.
  apply existsb_exists. exists rt. tauto.
Qed.

(** the Admin server's audit policy for a managed mutation, with the principal as actor, is the MCP server's own *)
Lemma policy_same x principal reqid :
  match audit_policy_error x principal reqid true with None => true | Some _ => false end = mcp_managed_policy_ok x principal reqid.
Proof.
  unfold audit_policy_error, mcp_managed_policy_ok.
  destruct (x_req_actor x && is_nil principal); [reflexivity|].
  destruct (x_req_reqid x && is_nil reqid); [reflexivity|]. simpl.
  destruct (actor_policy_on x); simpl; [|reflexivity].
  destruct (is_nil principal); [reflexivity|]. destruct (actor_allowed x principal); reflexivity.
Qed.

Lemma sent_audit_parsed e a rq :
  xe_principal e <> [] -> audit_normal (xe_principal e) a ->
  parse_maudit (ma_of (xe_principal e) a) = Some rq ->
  parse_audit (xe_cfg e) (sent_audit (xe_principal e) a) = Some (pa_reason a, xe_principal e, pa_reqid a) /\ rq = pa_reqid a.
Proof.
  intros Pn [T1 [T2 [T3 [L1 [L2 L3]]]]] Pa.
  destruct (sent_audit_carried e a rq Pa) as [[_ [_ [_ [Rn [_ [_ Hact]]]]]] Erq]. split; [|exact Erq].
  specialize (Hact Pn). unfold sent_hreq in Hact. simpl in Hact.
  unfold parse_audit. unfold sent_audit in *. simpl in *. rewrite Hact, T1, T2, T3.
  destruct (pa_reason a) as [|b0 bt] eqn:Er; [contradiction|]. rewrite andb_false_r.
  rewrite (proj2 (Z.ltb_ge _ _) L1), (proj2 (Z.ltb_ge _ _) L2), (proj2 (Z.ltb_ge _ _) L3). reflexivity.
Qed.

Definition tool_audit (t : ptool) : paudit :=
  match t with PtIds _ a => xi_audit a | PtFilter _ a => xf_audit a end.

(** the Admin server's decision [A] on the request sent, beside the direct mode's decision [D] *)
Definition dec_rel (A D : decision) : Prop :=
  (A = D /\ exists c, D = DCall c) \/ (exists st g, A = DReject st g /\ D = mreject).

Lemma serve_relate now A D s :
  dec_rel A D -> (fst (serve now A s), tool_result (CResp (snd (serve now A s)))) = serve now D s.
Proof.
  intros [[-> [c ->]] | [st [g [-> ->]]]]; [|reflexivity].
  destruct (serve now (DCall c) s) as [s1 r] eqn:E. apply serve_inv in E.
  destruct r; [destruct E as [[=] _] | reflexivity | reflexivity].
Qed.

(** the proxy refuses only what the direct mode refuses, and the Admin server decides on the request sent as the
    direct mode does on the arguments *)
Definition decides_as_direct (e : xenv) (pd : pdecision) (D : decision) (ms : list msg) : Prop :=
  match pd with
  | PReject => D = mreject
  | PSend q => dec_rel (decide (xe_cfg e) (sn_ep q) (sn_req q) (sn_body q) ms) D
  end.

Lemma proxy_decides_as_direct e t ms :
  xe_auth e = true -> xe_allowed e = true -> xe_principal e <> [] -> audit_normal (xe_principal e) (tool_audit t) ->
  decides_as_direct e (proxy_decide e t) (mcp_decide (direct_env e) (direct_tool e t) ms) ms.
Proof.
  intros Au Al Pn An. destruct t as [k a | k a]; cbn [proxy_decide direct_tool mcp_decide tool_audit] in *.
  - destruct (ids_tool_cases e k a) as [[-> Dr] | (rq & raw & idl & _ & Pa & _ & P & -> & Dc)]; [apply Dr|].
    rewrite Al, Dc. cbn [decides_as_direct sn_ep sn_req sn_body decide].
    destruct (sent_audit_parsed e _ _ Pn An Pa) as [Ea ->].
    unfold decide_ids. rewrite (gate_pass (sent_hreq e (xi_audit a)) _ Au eq_refl). cbn [sent_hreq h_audit].
    rewrite Ea, (admin_reparses_ids _ _ P), ids_states_same.
    destruct (touches_managed (xe_cfg e) (mcp_ids_tool_states k) idl ms) eqn:Tm; [|rewrite andb_false_r; left; eauto].
    rewrite (touches_any_managed _ _ _ _ Tm), <- policy_same. simpl.
    destruct (audit_policy_error (xe_cfg e) (xe_principal e) (pa_reqid (xi_audit a)) true); [right | left]; eauto.
  - destruct (filter_tool_cases e k a) as [[-> Dr] | (rq & p & route & ep & wr & _ & Pa & P & Dc & -> & Hc)]; [apply Dr|].
    cbv zeta in Dc. rewrite Al, Dc. cbn [decides_as_direct sn_ep sn_req sn_body].
    destruct (sent_audit_parsed e _ _ Pn An Pa) as [Ea ->].
    destruct Hc as [(-> & -> & -> & Bl) | (ap & en & rt & _ & _ & F & Pol & -> & -> & ->)]; cbn [decide].
    + destruct (mcp_parse_filter_some _ _ _ P) as (_ & _ & _ & _ & _ & _ & Ens & _).
      unfold decide_filter. rewrite (gate_pass (sent_hreq e (xf_audit a)) _ Au eq_refl), (admin_reparses_filter k _ p true P). simpl.
      destruct (pf_route p) as [| |r]; [| contradiction |]; simpl in *; rewrite Ea, Bl; left; eauto.
    + unfold decide_scoped_filter, sent_hreq. simpl. rewrite Au, F, (admin_reparses_filter k _ p false P). simpl.
      rewrite Ea. rewrite <- policy_same in Pol.
      destruct (audit_policy_error (xe_cfg e) (xe_principal e) (pa_reqid (xf_audit a)) true); [discriminate | left; eauto].
Qed.

Theorem proxy_agrees_when_passed e now t fs s :
  hd FtPass fs = FtPass ->
  xe_auth e = true -> xe_allowed e = true -> xe_principal e <> [] -> audit_normal (xe_principal e) (tool_audit t) ->
  fst (proxy_request e now t fs s) = mcp_request (direct_env e) now (direct_tool e t) s.
Proof.
  intros Hp Au Al Pn An. unfold mcp_request.
  pose proof (proxy_decides_as_direct e t (msgs s) Au Al Pn An) as X.
  destruct (proxy_decide e t) as [|q] eqn:D; cbn [decides_as_direct] in X.
  - rewrite (proxy_request_reject _ _ _ _ _ D), X. reflexivity.
  - rewrite (proxy_request_send _ _ _ _ _ _ D), Hp, <- (serve_relate now _ _ s X).
    unfold attempt, sent_handler, admin_request.
    destruct (serve now (decide (xe_cfg e) (sn_ep q) (sn_req q) (sn_body q) (msgs s)) s). reflexivity.
Qed.

Definition px_ctx : ctx := ex_ctx.
Definition px_env : xenv := mkXEnv true [111%N; 112%N; 115%N] px_ctx true true.
Definition px_audit : paudit := mkPA true [119%N; 104%N; 121%N] [] [].
Definition px_filter (lim : Z) : ptool :=
  PtFilter FCancel (mkXF false true px_audit (RtPlain 1) LBlank LBlank RBlank (RsKnown Queued) TAbsent (MLInt lim) false).
Definition px_states (s : state) : list (N * st) := map (fun m => (m_id m, m_st m)) (msgs s).

(** the answer of the one request is lost: the newest queued message on route 1 is canceled, the tool reports an error,
    one request was sent and served - and nothing else happens, although the script would let a second request through *)
Example ex_lost_answer_applied_once :
  let '(s', r, n) := proxy_request px_env 100 (px_filter 1) [FtLost; FtPass] (state_of ex_pop) in
  (px_states s', r, n)
  = ([(1%N, Queued); (2%N, Dead); (3%N, Canceled); (4%N, Delivered); (5%N, Canceled)], HErr 0 GToolError, (1%nat, 1%nat)).
Proof. vm_compute. reflexivity. Qed.

Example ex_pass :
  let '(s', r, n) := proxy_request px_env 100 (px_filter 1) [] (state_of ex_pop) in
  (px_states s', r, n)
  = ([(1%N, Queued); (2%N, Dead); (3%N, Canceled); (4%N, Delivered); (5%N, Canceled)], HFilterOk 1 1 false, (1%nat, 1%nat)).
Proof. vm_compute. reflexivity. Qed.

(** why one attempt matters: the same loop with two attempts for a write cancels two messages for limit 1 and
    reports one *)
Example ex_second_attempt_would_double :
  match proxy_decide px_env (px_filter 1) with
  | PSend q =>
      let '(s', c, n) := call_admin 2 [FtLost; FtPass] (sent_handler px_ctx 100 q) (state_of ex_pop) in
      (px_states s', tool_result c, n)
      = ([(1%N, Canceled); (2%N, Dead); (3%N, Canceled); (4%N, Delivered); (5%N, Canceled)], HFilterOk 1 1 false, (2%nat, 2%nat))
  | PReject => False
  end.
Proof. vm_compute. reflexivity. Qed.

(** refused by the tool (limit 0; actor that is not the principal): nothing is sent *)
Example ex_refused_sends_nothing :
  proxy_request px_env 100 (px_filter 0) [] (state_of ex_pop) = (state_of ex_pop, HErr 0 GToolError, (O, O))
  /\ proxy_decide px_env (PtIds MCancel (mkXI false (mkPA true [119%N] [120%N] []) (IBIds [RPlain 1]))) = PReject.
Proof. vm_compute. split; reflexivity. Qed.

(** refused by the Admin API (a managed route without selector is stopped by the tool; a managed id without an allowed
    actor is stopped by the Admin server): error result, nothing changes *)
Example ex_refused_by_admin :
  let x := mkCtx true true true true true false false [[115%N; 118%N; 99%N]] [] 0 0
                 [mkRoute 1%N [1000%N] true true true true 0 0 None; mkRoute 5%N [1000%N] true true true true 0 0 (Some (1%N, 2%N))] in
  let e := mkXEnv true [111%N; 112%N; 115%N] x true true in
  let pop := [ex_msg 1 1 Queued 50; ex_msg 2 5 Queued 50] in
  proxy_request e 100 (PtIds MCancel (mkXI false px_audit (IBIds [RPlain 2]))) [] (state_of pop)
  = (state_of pop, HErr 0 GToolError, (1%nat, 1%nat))
  /\ snd (fst (proxy_request e 100 (PtIds MCancel (mkXI false px_audit (IBIds [RPlain 1]))) [] (state_of pop))) = HIdsOk 1.
Proof. vm_compute. split; reflexivity. Qed.

Example ex_request_built :
  proxy_decide px_env (PtIds MRequeueDead (mkXI false (mkPA true [119%N] [] [114%N; 49%N]) (IBIds [RPadded 2; RPlain 2; RPlain 9])))
  = PSend (mkSent (EpIds MRequeueDead) (mkHReq true true (mkAudit [119%N] [111%N; 112%N; 115%N] [114%N; 49%N]))
                  (BIds (IBIds [RPlain 2; RPlain 9])))
  /\ proxy_decide px_env (PtFilter FRequeue (mkXF false true px_audit RtBlank (LValid 1) (LValid 2) (RPadded 1000) (RsKnown Dead) (TOk 77) MLAbsent true))
     = PSend (mkSent (EpScopedFilter FRequeue (LValid 1) (LValid 2)) (mkHReq true true (mkAudit [119%N; 104%N; 121%N] [111%N; 112%N; 115%N] []))
                     (BFilter (FBOk (mkFBody RtBlank LBlank LBlank (RPlain 1000) (RsKnown Dead) (TOk 77) 100 true)))).
Proof. vm_compute. split; reflexivity. Qed.

(** reads are retried (503, transport error) up to three attempts, not on a 400; the store is untouched *)
Example ex_reads_retry :
  proxy_read px_env [FtStatus 503; FtNoReach; FtPass] (state_of ex_pop) = (state_of ex_pop, HIdsOk 0, (3%nat, 1%nat))
  /\ proxy_read px_env [FtStatus 503; FtStatus 503; FtStatus 503; FtPass] (state_of ex_pop) = (state_of ex_pop, HErr 0 GToolError, (3%nat, 0%nat))
  /\ proxy_read px_env [FtStatus 400; FtPass] (state_of ex_pop) = (state_of ex_pop, HErr 0 GToolError, (1%nat, 0%nat))
  /\ proxy_read px_env [FtGarbled; FtPass] (state_of ex_pop) = (state_of ex_pop, HErr 0 GToolError, (1%nat, 1%nat)).
Proof. vm_compute. repeat split; reflexivity. Qed.
