(** What one operation may do to one stored message (C02): the documented state machine as a
    relation [change], the documented removals as [removal], and the theorem that every step of the
    model is a per-message application of exactly these, plus the appended messages of a successful
    enqueue. *)
From Coq Require Import List ZArith NArith Bool Lia.
From HK Require Import Model.Queue Model.QueueMon Proofs.ListFacts Proofs.QueueBase Proofs.QueueInv
  Proofs.QueueInvStep.
Import ListNotations.
Open Scope Z_scope.

(** operations that release leases which have already expired when they run *)
Definition releases (x : op) : bool :=
  match x with Dequeue _ _ _ _ _ | LeaseOp _ _ _ | LeaseBatch _ _ _ => true | _ => false end.

Definition leased_version (now ttl : Z) (lid : N) (m0 : msg) : msg :=
  upd m0 Leased (now + ttl) (m_reason m0) (Some lid) (now + ttl) (m_attempt m0 + 1).

Definition item_pairs (r : res) : list (N * N) :=
  map (fun it => (fst (fst (fst it)), snd (fst (fst it)))) (deq_items r).

Definition manage_kind_of (x : op) : option manage_kind :=
  match x with
  | Manage _ k _ => Some k
  | ManageF _ k f => if f_preview f then None else Some k
  | _ => None
  end.

Definition prune_reason (c : cfg) (now : Z) (m : msg) : Prop :=
  is_leased m = false /\ 0 < c_prune_iv c /\
  (prune_age_eligible c now m = true \/ (m_st m = Dead /\ 0 < c_dlq_depth c)).

Definition enq_ok (x : op) (r : res) : bool :=
  match x, r with
  | Enqueue _ _, RUnit => true
  | EnqueueBatch _ (_ :: _), RCount _ _ _ => true
  | _, _ => false
  end.

Lemma enq_ok_res_ok x r : enq_ok x r = true -> res_ok r = true.
Proof. destruct x, r; simpl; intros H; try discriminate; try reflexivity; destruct es; discriminate. Qed.

Inductive change (c : cfg) (x : op) (r : res) (m m' : msg) : Prop :=
| ch_same : m' = m -> change c x r m m'
| ch_expire : releases x = true -> expired (op_now x) m = true ->
              (is_dequeue x = true \/ presents x m = true) ->       (* a dequeue sweeps; a lease operation releases only the lease it was given *)
              m' = release (op_now x) m -> change c x r m m'
| ch_dequeue : forall route target b ttl lid m0,
    x = Dequeue (op_now x) route target b ttl ->
    (m0 = m \/ (expired (op_now x) m = true /\ m0 = release (op_now x) m)) ->
    ready (op_now x) route target m0 = true ->
    In (m_id m, lid) (item_pairs r) ->
    m_lease m <> Some lid ->                                          (* the new lease id is not the one the message held *)
    m' = leased_version (op_now x) (eff_ttl ttl) lid m0 ->
    change c x r m m'
| ch_settle : forall k lid,
    lease_op_kind x = Some k -> In lid (presented x) -> m_lease m = Some lid ->
    is_leased m = true -> op_now x < m_until m -> res_ok r = true -> is_noop_extend k = false ->
    lease_effect c (op_now x) k m = Some m' -> change c x r m m'
| ch_manage : forall k,
    manage_kind_of x = Some k -> allowed_from k (m_st m) = true -> res_ok r = true ->
    manage_effect (op_now x) k m = Some m' -> change c x r m m'.

Inductive removal (c : cfg) (x : op) (r : res) (m : msg) : Prop :=
| rm_ack : forall lid,
    lease_op_kind x = Some KAck -> In lid (presented x) -> m_lease m = Some lid ->
    is_leased m = true -> op_now x < m_until m -> res_ok r = true ->
    c_deliv_age c <= 0 -> removal c x r m
| rm_delete : (exists now ids, x = Manage now MDeleteDead ids /\ In (m_id m) (norm_ids ids [])) ->
              m_st m = Dead -> res_ok r = true -> removal c x r m
| rm_prune : prunes x = true -> prune_reason c (op_now x) m -> removal c x r m
| rm_evict : enq_ok x r = true -> c_drop_oldest c = true -> 0 < c_max_depth c ->
             queuedb m = true -> removal c x r m.

(** every message after the step is the image of a message before it under [pm], or new *)
Definition per_message (c : cfg) (x : op) (r : res) (l : list msg) (pm : msg -> option msg) : Prop :=
  forall m, In m l -> match pm m with Some m' => change c x r m m' | None => removal c x r m end.

Definition news_ok (x : op) (o : oracle) (r : res) (news : list msg) : Prop :=
  news = [] \/
  (enq_ok x r = true /\ exists ies, assign_ids (enq_list x) (o_genids o) = Some ies /\
                                  news = map (fun p => mk_msg (op_now x) (fst p) (snd p)) ies).

Definition step_spec (c : cfg) (x : op) (o : oracle) (r : res) (l l' : list msg) : Prop :=
  exists pm news, l' = apply_pm pm l ++ news /\ per_message c x r l pm /\ news_ok x o r news.

Lemma change_same_imm c x r m m' : change c x r m m' -> same_imm m m'.
Proof.
  intros H. destruct H as [E | _ _ _ E | route target b ttl lid m0 _ H0 _ _ _ E | k lid _ _ _ _ _ _ _ E | k _ _ _ E].
  - subst. apply same_imm_refl.
  - subst. apply release_same_imm.
  - subst. destruct H0 as [H0 | [_ H0]]; subst; repeat split.
  - apply (lease_effect_imm c (op_now x) k). exact E.
  - apply (manage_effect_imm (op_now x) k). exact E.
Qed.

Definition edge_ok (x : op) (a b : st) : Prop :=
  a = b \/
  match a, b with
  | Queued, Leased => is_dequeue x = true
  | Leased, Queued => releases x = true                                     (* nack, or expiry noticed by a dequeue / lease operation *)
  | Leased, Delivered => lease_op_kind x = Some KAck
  | Leased, Dead => exists rs, lease_op_kind x = Some (KDead rs)
  | (Queued | Leased | Dead), Canceled => manage_kind_of x = Some MCancel
  | Dead, Queued => manage_kind_of x = Some MRequeue \/ manage_kind_of x = Some MRequeueDead
  | Canceled, Queued => manage_kind_of x = Some MRequeue \/ manage_kind_of x = Some MResume
  | _, _ => False
  end.

Lemma lease_op_kind_releases x k : lease_op_kind x = Some k -> releases x = true.
Proof. destruct x; simpl; intros H; try discriminate; reflexivity. Qed.

Lemma change_edge c x r m m' : change c x r m m' -> edge_ok x (m_st m) (m_st m').
Proof.
  intros H. destruct H as [E | Hr He _ E | route target b ttl lid m0 Ex H0 Hrd _ _ E | k lid Hk _ _ Hl _ _ _ E | k Hk Ha _ E].
  - subst. left. reflexivity.
  - subst. apply expired_st in He. destruct He as [Hs _]. rewrite Hs. right. exact Hr.
  - subst m'. simpl. rewrite Ex. destruct H0 as [H0 | [He H0]]; subst m0.
    + apply ready_st in Hrd. destruct Hrd as [Hs _]. rewrite Hs. right. reflexivity.
    + apply expired_st in He. destruct He as [Hs _]. rewrite Hs. left. reflexivity.
  - rewrite (is_leased_st m Hl). unfold lease_effect in E. destruct k.
    + destruct (0 <? c_deliv_age c); inversion E; subst; simpl. right. exact Hk.
    + inversion E; subst; simpl. right. apply (lease_op_kind_releases x _ Hk).
    + inversion E; subst; simpl. left. reflexivity.
    + inversion E; subst; simpl. right. exists reason. exact Hk.
  - unfold manage_effect in E.
    destruct k; inversion E; subst; simpl; destruct (m_st m); simpl in Ha; try discriminate;
      right; simpl; auto.
Qed.

Lemma change_attempt c x r m m' :
  change c x r m m' -> ~ In (m_id m) (item_ids r) -> m_attempt m' = m_attempt m.
Proof.
  intros H Hn. destruct H as [E | _ _ _ E | route target b ttl lid m0 _ _ _ Hin _ _ | k lid _ _ _ _ _ _ _ E | k _ _ _ E].
  - subst. reflexivity.
  - subst. reflexivity.
  - exfalso. apply Hn. unfold item_pairs in Hin. apply in_map_iff in Hin. destruct Hin as [it [Eit Hit]].
    apply in_map_iff. exists it. split; [injection Eit as E _; exact E | exact Hit].
  - unfold lease_effect in E. destruct k; [destruct (0 <? c_deliv_age c)| | |]; inversion E; reflexivity.
  - unfold manage_effect in E. destruct k; inversion E; reflexivity.
Qed.

Lemma removal_of_live_lease c x r m :
  removal c x r m -> is_leased m = true ->
  lease_op_kind x = Some KAck /\ exists lid, m_lease m = Some lid /\ In lid (presented x) /\ op_now x < m_until m.
Proof.
  intros H L. destruct H as [lid Hk Hp Hl _ Hu _ _ | _ Hd _ | _ [Hn _] | _ _ _ Hq].
  - split; [exact Hk|]. exists lid. repeat split; assumption.
  - apply is_leased_st in L. congruence.
  - congruence.
  - apply is_leased_st in L. apply queuedb_st in Hq. congruence.
Qed.

Lemma change_on_error_releases c x e m m' :
  change c x (RErr e) m m' ->
  m' = m \/ (releases x = true /\ expired (op_now x) m = true /\ m' = release (op_now x) m).
Proof.
  intros H. destruct H as [E | Hr He _ E | route target b ttl lid m0 _ _ _ Hin _ _ | k lid _ _ _ _ _ Hok _ _ | k _ _ Hok _].
  - left. exact E.
  - right. repeat split; assumption.
  - destruct Hin.
  - discriminate.
  - discriminate.
Qed.

Lemma change_on_error c x e m m' :
  change c x (RErr e) m m' -> m' = m \/ (expired (op_now x) m = true /\ m' = release (op_now x) m).
Proof. intros H. destruct (change_on_error_releases c x e m m' H) as [E | [_ E]]; [left | right]; exact E. Qed.

Lemma removal_on_error c x e m : removal c x (RErr e) m -> prunes x = true /\ prune_reason c (op_now x) m.
Proof.
  intros H. destruct H as [lid _ _ _ _ _ Hok _ | _ _ Hok | Hp Hr | Hok _ _ _]; try discriminate.
  - split; assumption.
  - destruct x; try discriminate; destruct es; discriminate.
Qed.

Lemma spec_of_per_message c x o r l pm : per_message c x r l pm -> step_spec c x o r l (apply_pm pm l).
Proof. intros P. exists pm, []. rewrite app_nil_r. split; [reflexivity|]. split; [exact P | left; reflexivity]. Qed.

Lemma spec_no_news c x o r l l' :
  step_spec c x o r l l' -> enq_list x = [] -> exists pm, l' = apply_pm pm l /\ per_message c x r l pm.
Proof.
  intros [pm [news [E [P N]]]] He. exists pm. split; [|exact P]. rewrite E.
  destruct N as [-> | [_ [ies [EA ->]]]]; [|rewrite He in EA; injection EA as <-]; apply app_nil_r.
Qed.

Lemma identity_spec c x o r l : step_spec c x o r l l.
Proof. rewrite <- (apply_pm_id l) at 2. apply spec_of_per_message. intros m _. apply ch_same. reflexivity. Qed.

Lemma In_insert_by key asc m l x : In x (insert_by key asc m l) <-> x = m \/ In x l.
Proof.
  induction l as [|a tl IH]; simpl; [intuition auto|].
  destruct (if asc then _ else _); simpl; [|rewrite IH]; intuition auto.
Qed.

Lemma In_sort_by key asc l x : In x (sort_by key asc l) <-> In x l.
Proof.
  unfold sort_by. induction l as [|a tl IH]; simpl; [tauto|].
  rewrite In_insert_by, IH. intuition auto.
Qed.

Lemma In_prefer hint cands i : In i (prefer hint cands) -> In i cands.
Proof.
  unfold prefer. intros H. apply in_app_or in H. destruct H as [H | H]; apply filter_In in H; apply H.
Qed.

Lemma dlq_victims_spec depth hint l i :
  In i (dlq_depth_victims depth hint l) ->
  0 < depth /\ depth < Z.of_nat (length (filter (fun m => st_eqb (m_st m) Dead) l)) /\
  exists m, In m l /\ m_id m = i /\ m_st m = Dead /\
    forall d, In d l -> m_st d = Dead -> ~ In (m_id d) (dlq_depth_victims depth hint l) -> m_recv m <= m_recv d.
Proof.
  unfold dlq_depth_victims.
  set (deads := filter (fun m => st_eqb (m_st m) Dead) l).
  destruct ((0 <? depth) && (depth <? Z.of_nat (length deads))) eqn:E; [|intros []].
  apply andb_true_iff in E. destruct E as [E1 E2]. apply Z.ltb_lt in E1. apply Z.ltb_lt in E2.
  destruct (nth_error (sort_by m_recv true deads) _) as [cutm|]; [|intros []].
  set (sorted := sort_by m_recv true deads).
  set (cut := m_recv cutm).
  intros H. split; [exact E1|]. split; [exact E2|].
  assert (Hd : forall m, In m sorted <-> In m l /\ m_st m = Dead).
  { intros m. unfold sorted. rewrite In_sort_by. unfold deads. rewrite filter_In, st_eqb_eq. tauto. }
  assert (Hle : exists m, In m sorted /\ m_id m = i /\ m_recv m <= cut).
  { apply in_app_or in H. destruct H as [H | H].
    - apply in_map_iff in H. destruct H as [m [Em Hm]]. apply filter_In in Hm. destruct Hm as [Hm Hlt].
      apply Z.ltb_lt in Hlt. exists m. split; [exact Hm|]. split; [exact Em | unfold cut; lia].
    - apply In_firstn in H. apply In_prefer in H. apply in_map_iff in H. destruct H as [m [Em Hm]].
      apply filter_In in Hm. destruct Hm as [Hm Heq]. apply Z.eqb_eq in Heq.
      exists m. split; [exact Hm|]. split; [exact Em | unfold cut; lia]. }
  destruct Hle as [m [Hm [Ei Hc]]]. exists m. apply Hd in Hm. destruct Hm as [Hm Hs].
  split; [exact Hm|]. split; [exact Ei|]. split; [exact Hs|].
  intros d Hdl Hds Hnv.
  destruct (Z_lt_le_dec (m_recv d) cut) as [Hlt | Hge]; [|eapply Z.le_trans; eassumption].
  exfalso. apply Hnv. apply in_or_app. left. apply in_map_iff. exists d. split; [reflexivity|].
  apply filter_In. split; [apply Hd; auto | apply Z.ltb_lt; exact Hlt].
Qed.

Lemma prune_age_not_leased c now m : prune_age_eligible c now m = true -> is_leased m = false.
Proof. unfold prune_age_eligible, is_leased. destruct (m_st m); simpl; intros H; try discriminate; reflexivity. Qed.

Lemma prune_enabled_iv c now lp : prune_due c now lp = true -> 0 < c_prune_iv c.
Proof.
  unfold prune_due, prune_enabled. rewrite !andb_true_iff. intros [[H _] _]. apply Z.ltb_lt. exact H.
Qed.

(** the two ways a prune removes a message: by age, or as one of the oldest dead over the DLQ depth *)
Lemma prune_pm_none c now hint s m :
  prune_pm c now hint s m = None ->
  prune_due c now (last_prune s) = true
  /\ (prune_age_eligible c now m = true
      \/ In (m_id m) (dlq_depth_victims (c_dlq_depth c) hint (apply_pm (pm_prune_age c now) (msgs s)))).
Proof.
  unfold prune_pm. destruct (prune_due c now (last_prune s)); [|discriminate]. intros H. split; [reflexivity|].
  unfold pm_prune_msgs, pm_comp, pm_prune_age in H. destruct (prune_age_eligible c now m); [left; reflexivity|].
  right. apply memN_In. unfold pm_remove_ids in H. destruct (memN (m_id m) _); [reflexivity | discriminate].
Qed.

Lemma prune_pm_cases c now hint s m :
  NoDup (ids (msgs s)) -> In m (msgs s) ->
  prune_pm c now hint s m = Some m \/ (prune_pm c now hint s m = None /\ prune_reason c now m).
Proof.
  intros ND Hm. destruct (prune_pm c now hint s m) as [m'|] eqn:E.
  { left. f_equal. apply (prune_pm_same c now hint s m m' E). }
  right. split; [reflexivity|]. destruct (prune_pm_none c now hint s m E) as [Ed Why].
  pose proof (prune_enabled_iv _ _ _ Ed) as Hiv. destruct Why as [Ee | Ev].
  - split; [apply (prune_age_not_leased c now); exact Ee|]. split; [exact Hiv | left; exact Ee].
  - apply dlq_victims_spec in Ev. destruct Ev as [Hd [_ [m1 [H1 [Ei [Es _]]]]]].
    (* the dead message with this id that survived the age rules is [m] itself *)
    apply apply_pm_In in H1. destruct H1 as [m0 [H0 Ep]]. apply pm_prune_age_same in Ep. subst m1.
    assert (m0 = m) by (apply (nodup_ids_inj (msgs s)); assumption). subst m0.
    split; [unfold is_leased; rewrite Es; reflexivity|]. split; [exact Hiv|]. right. split; assumption.
Qed.

Definition deq_pre_pm (fl : flavour) (c : cfg) (now : Z) (o : oracle) (s : state) : msg -> option msg :=
  let sweeping := match fl with Mem => true | Sql => sql_sweep_due now (last_sweep s) end in
  pm_comp (prune_pm c now (o_gone o) s) (if sweeping then pm_sweep now else (fun m => Some m)).

Lemma deq_pre_msgs fl c now o s : msgs (deq_pre fl c now o s) = apply_pm (deq_pre_pm fl c now o s) (msgs s).
Proof.
  unfold deq_pre, deq_pre_pm. destruct fl; simpl.
  - unfold sweep. rewrite prune_msgs_eq, apply_pm_comp. reflexivity.
  - rewrite prune_last_sweep. destruct (sql_sweep_due now (last_sweep s)); simpl.
    + unfold sweep. rewrite prune_msgs_eq, apply_pm_comp. reflexivity.
    + rewrite prune_msgs_eq, <- apply_pm_comp, apply_pm_id. reflexivity.
Qed.

Lemma deq_pre_issued fl c now o s : issued (deq_pre fl c now o s) = issued s.
Proof.
  unfold deq_pre. destruct fl; simpl; [apply prune_issued|].
  destruct (sql_sweep_due _ _); simpl; apply prune_issued.
Qed.

Lemma deq_pre_pm_imm fl c now o s : imm_pres (deq_pre_pm fl c now o s).
Proof. unfold deq_pre_pm. destruct (match fl with Mem => true | Sql => _ end); auto with qimm. Qed.
#[export] Hint Resolve deq_pre_pm_imm : qimm.

Lemma deq_pre_pm_id_pres fl c now o s : id_pres (deq_pre_pm fl c now o s).
Proof. apply imm_pres_id_pres, deq_pre_pm_imm. Qed.

Lemma deq_pre_cases fl c now o s m :
  NoDup (ids (msgs s)) -> In m (msgs s) ->
  (deq_pre_pm fl c now o s m = None /\ prune_reason c now m)
  \/ deq_pre_pm fl c now o s m = Some m
  \/ (deq_pre_pm fl c now o s m = Some (release now m) /\ expired now m = true).
Proof.
  intros ND Hm. unfold deq_pre_pm, pm_comp.
  destruct (prune_pm_cases c now (o_gone o) s m ND Hm) as [E | [E R]]; rewrite E; [|left; split; [reflexivity | exact R]].
  right. destruct (match fl with Mem => true | Sql => sql_sweep_due now (last_sweep s) end); [|left; reflexivity].
  unfold pm_sweep. destruct (expired now m) eqn:Ee; [right; split; reflexivity | left; reflexivity].
Qed.

Lemma deq_pre_find fl c now o s i m0 :
  Inv s -> find_id i (msgs (deq_pre fl c now o s)) = Some m0 ->
  exists m, find_id i (msgs s) = Some m /\ (m0 = m \/ (m0 = release now m /\ expired now m = true)).
Proof.
  intros I F. rewrite deq_pre_msgs, find_id_apply_pm in F; [|apply deq_pre_pm_id_pres | apply I].
  destruct (find_id i (msgs s)) as [m|] eqn:Fm; [|discriminate]. exists m. split; [reflexivity|].
  apply find_id_Some in Fm. destruct Fm as [Hm _].
  destruct (deq_pre_cases fl c now o s m (inv_nodup _ _ I) Hm) as [[E _] | [E | [E Ee]]]; rewrite E in F; inversion F; auto.
Qed.

Lemma deq_pre_per_message fl c now route target batch ttl o r s :
  Inv s -> per_message c (Dequeue now route target batch ttl) r (msgs s) (deq_pre_pm fl c now o s).
Proof.
  intros I m Hm. destruct (deq_pre_cases fl c now o s m (inv_nodup _ _ I) Hm) as [[E R] | [E | [E Ee]]]; rewrite E.
  - apply rm_prune; [reflexivity | exact R].
  - apply ch_same. reflexivity.
  - apply ch_expire; auto.
Qed.

Lemma pm_lease_cases l iss now route target b t picked m0 :
  InvL l iss -> valid_pick now route target b l iss picked = true -> In m0 l ->
  pm_lease now t picked m0 = Some m0
  \/ exists lid, In (m_id m0, lid) picked /\ ready now route target m0 = true
                 /\ pm_lease now t picked m0 = Some (leased_version now t lid m0).
Proof.
  intros I V Hm. unfold pm_lease. destruct (lease_of picked (m_id m0)) as [lid|] eqn:E; [|left; reflexivity].
  right. exists lid. apply lease_of_In in E. split; [exact E|]. split; [|reflexivity].
  apply valid_pick_parts in V. destruct V as [_ [_ [Cc _]]].
  destruct (Cc (m_id m0)) as [m1 [F R]]; [apply (in_map fst _ _ E)|].
  rewrite (find_id_In_NoDup l m0 (inv_nodup _ _ I) Hm) in F. inversion F; subst. exact R.
Qed.

Lemma item_pairs_RItems l3 picked :
  item_pairs (RItems (map (fun p : N * N => match find_id (fst p) l3 with
                                            | Some m => (fst p, snd p, m_attempt m, m_until m)
                                            | None => (fst p, snd p, 0, 0) end) picked)) = picked.
Proof.
  unfold item_pairs, deq_items. rewrite map_map. rewrite <- (map_id picked) at 2. apply map_ext.
  intros [a b]. simpl. destruct (find_id a l3); reflexivity.
Qed.

Lemma item_ids_pairs r : item_ids r = map fst (item_pairs r).
Proof. unfold item_pairs. rewrite map_map. reflexivity. Qed.

Lemma item_leases_pairs r : item_leases r = map snd (item_pairs r).
Proof. unfold item_pairs. rewrite map_map. reflexivity. Qed.

Lemma step_dequeue_spec fl c now route target batch ttl o s s' r :
  Inv s -> step_dequeue fl c now route target batch ttl o s = (s', r) ->
  step_spec c (Dequeue now route target batch ttl) o r (msgs s) (msgs s').
Proof.
  intros I H. rewrite step_dequeue_eq in H. cbv zeta in H.
  pose proof (deq_pre_inv fl c now o s I) as I2.
  set (x := Dequeue now route target batch ttl). set (s2 := deq_pre fl c now o s) in *.
  destruct (valid_pick now route target (clamp_batch batch) (msgs s2) (issued s2) (o_picked o)) eqn:V;
    inversion H; subst s' r; clear H; cbn [msgs].
  2:{ unfold s2. rewrite deq_pre_msgs. apply spec_of_per_message, deq_pre_per_message, I. }
  set (r := RItems _). unfold s2 at 1. rewrite deq_pre_msgs, apply_pm_comp. apply spec_of_per_message.
  (* the second phase: [m0] is what the first phase left of [m] *)
  assert (Lease : forall m m0, In m (msgs s) -> deq_pre_pm fl c now o s m = Some m0 ->
            (m0 = m \/ (expired now m = true /\ m0 = release now m)) ->
            match pm_lease now (eff_ttl ttl) (o_picked o) m0 with Some m' => change c x r m m' | None => removal c x r m end).
  { intros m m0 Hm E H0.
    assert (Hin : In m0 (msgs s2)) by (unfold s2; rewrite deq_pre_msgs; apply apply_pm_In; exists m; auto).
    destruct (pm_lease_cases _ _ _ _ _ _ (eff_ttl ttl) _ m0 I2 V Hin) as [P | [lid [Pin [Prd P]]]]; rewrite P.
    - destruct H0 as [E0 | [Ee E0]]; subst m0; [apply ch_same; reflexivity | apply ch_expire; auto].
    - assert (Pin' : In (m_id m, lid) (o_picked o)) by (destruct H0 as [E0 | [_ E0]]; subst m0; exact Pin).
      apply (ch_dequeue c x r m _ route target batch ttl lid m0); auto.
      + unfold r. rewrite item_pairs_RItems. exact Pin'.
      + (* the lease ids handed out are not held by any stored message *)
        intros L. apply valid_pick_parts in V. destruct V as [_ [_ [_ [D _]]]].
        apply (D lid); [apply (in_map snd _ _ Pin')|]. unfold s2. rewrite deq_pre_issued. apply (inv_liss _ _ I m lid Hm L). }
  intros m Hm. unfold pm_comp.
  destruct (deq_pre_cases fl c now o s m (inv_nodup _ _ I) Hm) as [[E R] | [E | [E Ee]]]; rewrite E.
  - apply rm_prune; [reflexivity | exact R].
  - apply (Lease m m Hm E). left. reflexivity.
  - apply (Lease m _ Hm E). right. split; [exact Ee | reflexivity].
Qed.

Lemma prune_only_spec c x o r s hint :
  Inv s -> prunes x = true ->
  step_spec c x o r (msgs s) (msgs (prune c (op_now x) hint s)).
Proof.
  intros I Hp. rewrite prune_msgs_eq. apply spec_of_per_message.
  intros m Hm. destruct (prune_pm_cases c (op_now x) hint s m (inv_nodup _ _ I) Hm) as [E | [E R]]; rewrite E.
  - apply ch_same. reflexivity.
  - apply rm_prune; assumption.
Qed.

(** the specification of [pm_settle] that the statements about fencing (C04) are phrased in *)
Definition lchange (c : cfg) (now : Z) (k : lease_kind) (pres : list N) (m : msg) (r : option msg) : Prop :=
  r = Some m
  \/ (exists lid, m_lease m = Some lid /\ In lid pres /\ expired now m = true /\ r = Some (release now m))
  \/ (exists lid, m_lease m = Some lid /\ In lid pres /\ is_leased m = true /\ now < m_until m /\ r = lease_effect c now k m).

Lemma settle_lchange c now k pres m : lchange c now k pres m (pm_settle c now k pres m).
Proof.
  unfold pm_settle, pm_guard. destruct (held pres m) eqn:H; [|left; reflexivity].
  apply held_In in H. destruct H as [Il [y [L Hy]]]. right. destruct (m_until m <=? now) eqn:Eu.
  - left. exists y. repeat split; auto. unfold expired. rewrite Il, Eu. reflexivity.
  - right. exists y. apply Z.leb_gt in Eu. repeat split; auto.
Qed.

Lemma lchange_imm c now k pres m m' : lchange c now k pres m (Some m') -> same_imm m m'.
Proof.
  intros [H | [[lid [_ [_ [_ H]]]] | [lid [_ [_ [_ [_ H]]]]]]].
  - inversion H; subst. apply same_imm_refl.
  - inversion H; subst. apply release_same_imm.
  - apply (lease_effect_imm c now k). symmetry. exact H.
Qed.

Lemma lease_effect_none c now k m : lease_effect c now k m = None -> k = KAck /\ c_deliv_age c <= 0.
Proof.
  unfold lease_effect. destruct k; try discriminate. destruct (0 <? c_deliv_age c) eqn:E; [discriminate|].
  intros _. split; [reflexivity|]. apply Z.ltb_ge. exact E.
Qed.

(** what [lchange] allows is a documented change or removal, once the result is known to be a
    success wherever a lease was settled *)
Lemma lchange_to_change c x r k m :
  lease_op_kind x = Some k -> is_noop_extend k = false ->
  forall res, lchange c (op_now x) k (presented x) m res ->
  (forall lid, m_lease m = Some lid -> In lid (presented x) -> is_leased m = true -> op_now x < m_until m ->
               res_ok r = true) ->
  match res with Some m' => change c x r m m' | None => removal c x r m end.
Proof.
  intros Hk Hne res [H | [[lid [A [B [Cc D]]]] | [lid [A [B [Cc [D E]]]]]]] Hok.
  - subst. apply ch_same. reflexivity.
  - subst. apply ch_expire; [apply (lease_op_kind_releases x k Hk) | exact Cc | | reflexivity].
    right. unfold presents. rewrite A. apply memN_In. exact B.
  - pose proof (Hok lid A B Cc D) as Ok. subst res. destruct (lease_effect c (op_now x) k m) as [m'|] eqn:Ef.
    + apply (ch_settle c x r m m' k lid); auto.
    + destruct (lease_effect_none _ _ _ _ Ef) as [Ek Hd]. subst k. apply (rm_ack c x r m lid); auto.
Qed.

Lemma step_lease_spec fl c now k lr o s s' r :
  Inv s -> step_lease fl c now k lr s = (s', r) ->
  step_spec c (LeaseOp now k lr) o r (msgs s) (msgs s').
Proof.
  intros I H. unfold step_lease in H.
  destruct (is_noop_extend k) eqn:Hne; [inversion H; subst; apply identity_spec|].
  destruct lr as [x p| |]; try (inversion H; subst; apply identity_spec).
  rewrite (lease_one_eq c now k x (msgs s) (issued s) I) in H.
  assert (Hmsgs : msgs s' = apply_pm (pm_settle c now k [x]) (msgs s))
    by (destruct (find_lease x (msgs s)) as [m|]; [destruct (m_until m <=? now)|]; inversion H; reflexivity).
  rewrite Hmsgs. apply spec_of_per_message.
  intros m Hm. apply (lchange_to_change c (LeaseOp now k (LKnown x p)) r k m eq_refl Hne _ (settle_lchange c now k [x] m)).
  (* where the lease is settled the lookup finds its live holder: the result is RUnit *)
  intros lid A [B | []] _ D. subst lid. cbn [op_now] in D. apply Z.leb_gt in D.
  rewrite (find_lease_holder x (msgs s) (issued s) m I Hm A), D in H. inversion H. reflexivity.
Qed.

Fixpoint known_leases (ls : list lref) : list N :=
  match ls with
  | [] => []
  | LKnown x _ :: tl => x :: known_leases tl
  | _ :: tl => known_leases tl
  end.

Lemma presented_batch now k ls : presented (LeaseBatch now k ls) = known_leases ls.
Proof.
  unfold presented. induction ls as [|l tl IH]; simpl; [reflexivity|].
  destruct l; simpl; rewrite IH; reflexivity.
Qed.

Lemma held_cons x pres m : held (x :: pres) m = held [x] m || held pres m.
Proof.
  unfold held. destruct (is_leased m); [|reflexivity]. destruct (m_lease m) as [y|]; [|reflexivity].
  simpl. rewrite orb_false_r. reflexivity.
Qed.

(** presenting [x] and then [pres] is presenting them together: what the first step releases or
    settles is no longer leased, so the rest of a batch passes it over *)
Lemma settle_cons c now k x pres m :
  batch_kind_ok k = true ->
  pm_comp (pm_settle c now k [x]) (pm_settle c now k pres) m = pm_settle c now k (x :: pres) m.
Proof.
  intros Hk. unfold pm_comp, pm_settle at 1 3, pm_guard. rewrite (held_cons x pres m).
  destruct (held [x] m); [|reflexivity]. cbn [orb].
  destruct (m_until m <=? now); [apply settle_not_leased; reflexivity|].
  destruct (lease_effect c now k m) as [m1|] eqn:E; [|reflexivity].
  apply settle_not_leased. apply (lease_effect_clears c now k m m1 Hk E).
Qed.

Lemma lease_batch_eq c now k ls ms iss :
  batch_kind_ok k = true -> InvL ms iss ->
  fst (fst (lease_batch c now k ls ms)) = apply_pm (pm_settle c now k (known_leases ls)) ms.
Proof.
  intros Hk. revert ms. induction ls as [|l tl IH]; intros ms I.
  - simpl. rewrite <- (apply_pm_id ms) at 1. apply apply_pm_ext. intros m _.
    unfold pm_settle, pm_guard, held. destruct (m_lease m); rewrite andb_false_r; reflexivity.
  - rewrite lease_batch_cons_msgs. destruct l as [x p| |]; [|apply IH; exact I..].
    rewrite (lease_one_eq c now k x ms iss I). cbn [fst known_leases].
    rewrite IH by (apply invl_settle; exact I). rewrite apply_pm_comp.
    apply apply_pm_ext. intros m _. apply settle_cons. exact Hk.
Qed.

Lemma step_lease_batch_spec c now k ls o s s' r :
  batch_kind_ok k = true -> Inv s -> step_lease_batch c now k ls s = (s', r) ->
  step_spec c (LeaseBatch now k ls) o r (msgs s) (msgs s').
Proof.
  intros Hk I H. unfold step_lease_batch in H.
  set (k' := match k with KNack d => KNack (Z.max d 0) | _ => k end) in *.
  assert (Hk' : batch_kind_ok k' = true) by (destruct k; exact Hk).
  assert (Hne : is_noop_extend k' = false) by (destruct k; try reflexivity; discriminate).
  pose proof (lease_batch_eq c now k' ls (msgs s) (issued s) Hk' I) as E.
  destruct (lease_batch c now k' ls (msgs s)) as [[ms' n] cs]. inversion H; subst s' r. simpl in E.
  cbn [msgs]. rewrite E. apply spec_of_per_message.
  intros m _. apply (lchange_to_change c (LeaseBatch now k ls) (RBatch n cs) k' m eq_refl Hne).
  - rewrite presented_batch. apply settle_lchange.
  - reflexivity.
Qed.

Lemma pm_manage_per_message c x r k ids l :
  manage_kind_of x = Some k -> res_ok r = true ->
  (k = MDeleteDead -> exists now idl, x = Manage now MDeleteDead idl /\ ids = norm_ids idl []) ->
  per_message c x r l (pm_manage (op_now x) k ids).
Proof.
  intros Hk Hok Hdel m _. unfold pm_manage.
  destruct (memN (m_id m) ids && allowed_from k (m_st m)) eqn:E; [|apply ch_same; reflexivity].
  apply andb_true_iff in E. destruct E as [Em Ea].
  destruct (manage_effect (op_now x) k m) as [m'|] eqn:Ef; [apply (ch_manage c x r m m' k); auto|].
  (* only a delete has no image, and it is allowed from Dead alone *)
  destruct k; try discriminate. destruct (Hdel eq_refl) as [now [idl [Ex Eids]]]. apply rm_delete; [| | exact Hok].
  - exists now, idl. split; [exact Ex|]. rewrite <- Eids. apply memN_In. exact Em.
  - destruct (m_st m); try discriminate. reflexivity.
Qed.

Lemma step_manage_spec c now k idl o s s' r :
  step_manage now k idl s = (s', r) ->
  step_spec c (Manage now k idl) o r (msgs s) (msgs s').
Proof.
  intros H. unfold step_manage in H. inversion H; subst s' r; clear H. cbn [msgs set_msgs]. apply spec_of_per_message.
  apply (pm_manage_per_message c (Manage now k idl) _ k); [reflexivity | reflexivity|].
  intros Ek. subst k. exists now, idl. split; reflexivity.
Qed.

Lemma step_manage_f_spec c now k f o s s' r :
  (k = MCancel \/ k = MRequeue \/ k = MResume) ->
  step_manage_f now k f s = (s', r) ->
  step_spec c (ManageF now k f) o r (msgs s) (msgs s').
Proof.
  intros Hk H. unfold step_manage_f in H. destruct (f_preview f) eqn:Ep; inversion H; subst s' r; clear H.
  - apply identity_spec.
  - cbn [msgs set_msgs]. apply spec_of_per_message.
    apply (pm_manage_per_message c (ManageF now k f) _ k); [simpl; rewrite Ep; reflexivity | reflexivity|].
    intros Ek. subst k. destruct Hk as [Hk | [Hk | Hk]]; discriminate.
Qed.

Definition queued_ids (l : list msg) (vs : list N) : Prop :=
  forall v, In v vs -> exists m, In m l /\ m_id m = v /\ queuedb m = true.

Lemma mem_oldest_fresh ord l vs best m :
  mem_oldest ord l vs best = Some m -> best = Some m \/ (In m l /\ queuedb m = true /\ ~ In (m_id m) vs).
Proof.
  revert best. induction ord as [|i tl IH]; simpl; intros best H; [left; exact H|].
  destruct (find_id i l) as [mi|] eqn:F; [|apply IH; exact H].
  destruct (queuedb mi && negb (memN i vs)) eqn:Eq; [|apply IH; exact H].
  apply andb_true_iff in Eq. destruct Eq as [Eq En]. apply negb_true_iff in En. apply memN_false in En.
  apply find_id_Some in F. destruct F as [Fin Fid]. rewrite <- Fid in En.
  destruct best as [b|].
  - destruct (m_recv mi <? m_recv b); destruct (IH _ H) as [E | E]; auto.
    inversion E; subst. right. repeat split; assumption.
  - destruct (IH _ H) as [E | E]; auto. inversion E; subst. right. repeat split; assumption.
Qed.

Lemma mem_plan_loop_exact c fuel extra ord l a ad vs0 vs :
  mem_plan_loop c fuel extra ord l a ad vs0 = Some vs -> NoDup vs0 -> queued_ids l vs0 ->
  NoDup vs /\ queued_ids l vs /\
  exists n, Z.of_nat (length vs) = Z.of_nat (length vs0) + n /\ 0 <= n /\ mem_full c extra (a - n) (ad - n) = false.
Proof.
  assert (Stop : forall a0 ad0 ws, negb (mem_full c extra a0 ad0) = true -> NoDup ws -> queued_ids l ws ->
            NoDup ws /\ queued_ids l ws /\
            exists n, Z.of_nat (length ws) = Z.of_nat (length ws) + n /\ 0 <= n /\ mem_full c extra (a0 - n) (ad0 - n) = false).
  { intros a0 ad0 ws E ND Q. split; [exact ND|]. split; [exact Q|]. exists 0. rewrite !Z.sub_0_r. apply negb_true_iff in E.
    repeat split; lia || exact E. }
  revert a ad vs0. induction fuel as [|f IH]; simpl; intros a ad vs0 H ND Q.
  - destruct (negb (mem_full c extra a ad)) eqn:E; [|discriminate]. inversion H; subst. apply Stop; assumption.
  - destruct (negb (mem_full c extra a ad)) eqn:E; [inversion H; subst; apply Stop; assumption|].
    destruct (mem_oldest ord l vs0 None) as [m|] eqn:Eo; [|discriminate].
    apply mem_oldest_fresh in Eo. destruct Eo as [Eo | [Hm [Hq Hn]]]; [discriminate|].
    destruct (IH (a - 1) (ad - 1) (vs0 ++ [m_id m]) H) as [ND' [Q' [n [Ln [Hn0 Hf]]]]].
    + apply NoDup_snoc; assumption.
    + intros v Hv. apply in_app_or in Hv. destruct Hv as [Hv | [Hv | []]]; [apply Q; exact Hv|]. subst v. exists m. auto.
    + split; [exact ND'|]. split; [exact Q'|]. exists (n + 1). rewrite app_length in Ln. simpl length in Ln.
      split; [lia|]. split; [lia|]. replace (a - (n + 1)) with (a - 1 - n) by lia. replace (ad - (n + 1)) with (ad - 1 - n) by lia. exact Hf.
Qed.

Lemma mem_plan_spec c extra s l vs :
  mem_plan c extra s l = Some vs -> queued_ids l vs /\ (vs <> [] -> c_drop_oldest c = true /\ 0 < c_max_depth c).
Proof.
  unfold mem_plan. destruct (c_max_depth c <=? 0) eqn:Ed.
  { intros H; inversion H; subst. split; [intros v []|]. intros N; contradiction. }
  destruct (negb (mem_full c extra (active l) (active_deliv l))).
  { intros H; inversion H; subst. split; [intros v []|]. intros N; contradiction. }
  destruct (negb (c_drop_oldest c)) eqn:Edo; [discriminate|].
  intros H. split.
  - apply (mem_plan_loop_exact _ _ _ _ _ _ _ _ _ H (NoDup_nil N)). intros v [].
  - intros _. split; [apply negb_false_iff; exact Edo | apply Z.leb_gt; exact Ed].
Qed.

Lemma lt_key_le ka ia kb ib : lt_key ka ia kb ib = true -> ka <= kb.
Proof. unfold lt_key. rewrite orb_true_iff, andb_true_iff, Z.ltb_lt, Z.eqb_eq. intros [H | [H _]]; lia. Qed.

Lemma lt_key_false_ge ka ia kb ib : lt_key ka ia kb ib = false -> kb <= ka.
Proof.
  unfold lt_key. rewrite orb_false_iff, Z.ltb_ge. intros [H _]. exact H.
Qed.

Lemma sort_asc_head_min l :
  match sort_by m_recv true l with
  | [] => l = []
  | h :: _ => In h l /\ forall y, In y l -> m_recv h <= m_recv y
  end.
Proof.
  unfold sort_by. induction l as [|a tl IH]; simpl; [reflexivity|].
  destruct (fold_right (insert_by m_recv true) [] tl) as [|h t] eqn:E; simpl.
  - subst tl. split; [left; reflexivity|]. intros y [Hy | []]. subst. lia.
  - destruct IH as [Hh Hmin]. destruct (lt_key (m_recv a) (m_id a) (m_recv h) (m_id h)) eqn:El.
    + apply lt_key_le in El. split; [left; reflexivity|]. intros y [Hy | Hy]; [subst; lia | specialize (Hmin y Hy); lia].
    + apply lt_key_false_ge in El. split; [right; exact Hh|]. intros y [Hy | Hy]; [subst; lia | apply Hmin; exact Hy].
Qed.

Theorem sql_victim_oldest hint l v :
  sql_victim hint l = Some v ->
  exists m, In m l /\ m_id m = v /\ queuedb m = true /\ forall q, In q l -> queuedb q = true -> m_recv m <= m_recv q.
Proof.
  unfold sql_victim. pose proof (sort_asc_head_min (filter queuedb l)) as Hs.
  destruct (sort_by m_recv true (filter queuedb l)) as [|first rest]; [discriminate|]. destruct Hs as [_ Hmin].
  intros H. destruct (prefer hint _) as [|h t] eqn:Ep; simpl in H; [discriminate|]. inversion H; subst h.
  assert (Hin : In v (prefer hint (map m_id (filter (fun m => m_recv m =? m_recv first) (filter queuedb l))))) by (rewrite Ep; left; reflexivity).
  apply In_prefer in Hin. apply in_map_iff in Hin. destruct Hin as [m [Em Hm]].
  apply filter_In in Hm. destruct Hm as [Hm Hr]. apply Z.eqb_eq in Hr. apply filter_In in Hm. destruct Hm as [Hm Hq].
  exists m. repeat split; auto. intros q Hq1 Hq2. rewrite Hr. apply Hmin. apply filter_In. split; assumption.
Qed.

Lemma memN_cons x v vs : memN x (v :: vs) = N.eqb x v || memN x vs.
Proof. reflexivity. Qed.

Lemma remove_then_remove v vs l :
  apply_pm (pm_remove_ids vs) (remove_id v l) = apply_pm (pm_remove_ids (v :: vs)) l.
Proof.
  unfold remove_id. rewrite apply_pm_comp. apply apply_pm_ext. intros m _.
  unfold pm_comp, pm_remove_ids. rewrite memN_cons. simpl. destruct (N.eqb (m_id m) v); simpl; reflexivity.
Qed.

Lemma remove_id_In v l m : In m (remove_id v l) -> In m l.
Proof.
  unfold remove_id. intros H. apply apply_pm_In in H. destruct H as [m0 [H0 E]].
  apply pm_remove_ids_same in E. subst. exact H0.
Qed.

Lemma remove_nil l : apply_pm (pm_remove_ids []) l = l.
Proof. rewrite <- (apply_pm_id l) at 2. apply apply_pm_ext. reflexivity. Qed.

Lemma sql_make_room_evicts c fuel need hint l l2 :
  sql_make_room c fuel need hint l = Some l2 ->
  exists vs, l2 = apply_pm (pm_remove_ids vs) l /\ queued_ids l vs /\ NoDup vs
             /\ Z.of_nat (length vs) = Z.max 0 (need - c_max_depth c)
             /\ forall v, In v vs -> exists mv, In mv l /\ m_id mv = v
                                      /\ forall q, In q l2 -> queuedb q = true -> m_recv mv <= m_recv q.
Proof.
  assert (Fits : forall n (k : list msg), n <= c_max_depth c ->
            exists vs, k = apply_pm (pm_remove_ids vs) k /\ queued_ids k vs /\ NoDup vs
                       /\ Z.of_nat (length vs) = Z.max 0 (n - c_max_depth c)
                       /\ forall v, In v vs -> exists mv, In mv k /\ m_id mv = v
                                                /\ forall q, In q k -> queuedb q = true -> m_recv mv <= m_recv q).
  { intros n k Hle. exists []. rewrite remove_nil. split; [reflexivity|]. split; [intros v []|]. split; [constructor|].
    split; [simpl; lia | intros v []]. }
  revert need l. induction fuel as [|f IH]; simpl; intros need l H; destruct (need <=? c_max_depth c) eqn:E.
  - inversion H; subst. apply Fits, Z.leb_le, E.
  - discriminate.
  - inversion H; subst. apply Fits, Z.leb_le, E.
  - apply Z.leb_gt in E.
    destruct (sql_victim hint l) as [v|] eqn:Ev; [|discriminate].
    destruct (sql_victim_oldest hint l v Ev) as [mv [Hmv [Eid [Qv Hmin]]]].
    destruct (IH _ _ H) as [vs [E2 [Q [NDv [Len Hold]]]]]. exists (v :: vs).
    assert (Hsub : forall q, In q l2 -> In q l).
    { intros q Hq. rewrite E2 in Hq. apply apply_pm_In in Hq. destruct Hq as [q0 [Hq0 Eq0]].
      apply pm_remove_ids_same in Eq0. subst q0. apply (remove_id_In v). exact Hq0. }
    split; [rewrite E2; apply remove_then_remove|]. split; [|split; [|split]].
    + intros w [Hw | Hw]; [subst w; exists mv; auto|].
      destruct (Q w Hw) as [m [A [B Cc]]]. exists m. split; [apply (remove_id_In v); exact A | auto].
    + constructor; [|exact NDv]. intros Hin. destruct (Q v Hin) as [m [A [B _]]].
      assert (Hi : In v (ids (remove_id v l))) by (rewrite <- B at 1; apply in_map; exact A).
      unfold remove_id in Hi. apply ids_remove_ids in Hi. destruct Hi as [_ Hn]. apply Hn. left. reflexivity.
    + simpl length. rewrite Nat2Z.inj_succ, Len. lia.
    + intros w [Hw | Hw].
      * subst w. exists mv. split; [exact Hmv|]. split; [exact Eid|].
        intros q Hq Qq. apply Hmin; [apply Hsub; exact Hq | exact Qq].
      * destruct (Hold w Hw) as [m [Hm [Ei Hm_min]]]. exists m. split; [apply (remove_id_In v); exact Hm|]. split; [exact Ei | exact Hm_min].
Qed.

Lemma enq_room_spec fl c k hint s1 l2 :
  enq_room fl c k hint s1 = Some l2 ->
  exists vs, l2 = apply_pm (pm_remove_ids vs) (msgs s1) /\ queued_ids (msgs s1) vs
             /\ (vs <> [] -> c_drop_oldest c = true /\ 0 < c_max_depth c).
Proof.
  unfold enq_room. intros H.
  assert (Kept : exists vs, msgs s1 = apply_pm (pm_remove_ids vs) (msgs s1) /\ queued_ids (msgs s1) vs
                            /\ (vs <> [] -> c_drop_oldest c = true /\ 0 < c_max_depth c)).
  { exists []. rewrite remove_nil. split; [reflexivity|]. split; [intros v [] | intros N; contradiction]. }
  destruct fl.
  - destruct (mem_plan c k s1 (msgs s1)) as [vs|] eqn:EP; inversion H.
    exists vs. split; [reflexivity | apply (mem_plan_spec _ _ _ _ _ EP)].
  - destruct (0 <? c_max_depth c) eqn:Ed; [|inversion H; subst; exact Kept].
    destruct (c_drop_oldest c).
    + destruct (sql_make_room_evicts _ _ _ _ _ _ H) as [vs [E [Q _]]]. exists vs. split; [exact E|]. split; [exact Q|].
      intros _. split; [reflexivity | apply Z.ltb_lt; exact Ed].
    + destruct (c_max_depth c <? active (msgs s1) + k); inversion H; subst; exact Kept.
Qed.

(* the first premise says that [x] is the operation that calls [step_enqueue] so: [Enqueue] ([single]) or an [EnqueueBatch]
   of a non-empty list *)
Lemma step_enqueue_spec fl c x (single : bool) o s s' r :
  (enq_list x <> [] ->
   prunes x = true /\ forall k, enq_ok x (if single then RUnit else RCount k 0 false) = true) ->
  Inv s -> step_enqueue fl c (op_now x) single (enq_list x) o s = (s', r) ->
  step_spec c x o r (msgs s) (msgs s').
Proof.
  intros Hx I H.
  destruct (step_enqueue_cases _ _ _ _ _ _ _ _ _ H) as [_ | _ _ | e Hne | ies l2 Hne EA Room _ _]; try apply identity_spec.
  - apply prune_only_spec; [exact I | apply Hx; exact Hne].
  - destruct (Hx Hne) as [Hp Hok]. destruct (enq_room_spec _ _ _ _ _ _ Room) as [vs [El [Q Hdrop]]]. subst l2.
    pose proof (inv_prune c (op_now x) (o_gone o) s I) as I1.
    exists (pm_comp (prune_pm c (op_now x) (o_gone o) s) (pm_remove_ids vs)), (map (fun p => mk_msg (op_now x) (fst p) (snd p)) ies).
    split; [simpl; rewrite prune_msgs_eq, apply_pm_comp; reflexivity|]. split.
    + intros m Hm. unfold pm_comp.
      destruct (prune_pm_cases c (op_now x) (o_gone o) s m (inv_nodup _ _ I) Hm) as [E | [E R]]; rewrite E;
        [|apply rm_prune; assumption].
      unfold pm_remove_ids. destruct (memN (m_id m) vs) eqn:Ev; [|apply ch_same; reflexivity].
      (* an evicted message is a queued one, and there are none unless drop_oldest is configured *)
      apply memN_In in Ev. destruct (Q _ Ev) as [m1 [H1 [Ei Eq]]].
      assert (Hin : In m (msgs (prune c (op_now x) (o_gone o) s))) by (rewrite prune_msgs_eq; apply apply_pm_In; exists m; auto).
      assert (m1 = m) by (apply (nodup_ids_inj _ _ _ (inv_nodup _ _ I1)); assumption). subst m1.
      destruct Hdrop as [Hdo Hmax]; [intros N; subst vs; destruct Ev|]. apply rm_evict; auto.
    + right. split; [apply Hok|]. exists ies. split; [exact EA | reflexivity].
Qed.

Theorem step_sound fl c s x o s' r :
  Inv s -> step fl c s x o = (s', r) -> step_spec c x o r (msgs s) (msgs s').
Proof.
  intros I H. destruct x; cbn [step] in H.
  - apply (step_enqueue_spec fl c (Enqueue now e) true o s s' r); auto.
  - apply (step_enqueue_spec fl c (EnqueueBatch now es) false o s s' r); auto.
    destruct es; [contradiction | auto].
  - apply (step_dequeue_spec fl c now route target batch ttl o s s' r); assumption.
  - apply (step_lease_spec fl c now k l o s s' r); assumption.
  - destruct (batch_kind_ok k) eqn:Ek.
    + apply (step_lease_batch_spec c now k ls o s s' r); assumption.
    + inversion H; subst. apply identity_spec.
  - eapply step_manage_spec. exact H.
  - destruct k; try (inversion H; subst; apply identity_spec);
      apply (step_manage_f_spec c now _ f o s s' r); auto.
  - unfold step_list in H. destruct ord; inversion H; subst;
      apply (prune_only_spec c (ListMessages now f _) o _ s (o_gone o)); auto.
  - unfold step_list_dead in H. inversion H; subst.
    apply (prune_only_spec c (ListDead now route limit before) o _ s (o_gone o)); auto.
  - unfold step_lookup in H. inversion H; subst. apply identity_spec.
  - unfold step_stats in H. inversion H; subst.
    apply (prune_only_spec c (Stats now) o _ s (o_gone o)); auto.
  - destruct fl; inversion H; subst; apply identity_spec.
Qed.
