(** Sessions of Pull / Worker / Admin requests over one store (Model/Bearer.v handler skeletons).
    An unauthorized request leaves the store untouched and issues no store call (Proofs/BearerProofs.v), so it
    is the identity step of a session ([step_unauthorized]): unauthorized traffic is invisible to the queue
    wherever it is interleaved. *)
From Coq Require Import List NArith Bool.
From HK Require Import Model.RBytes Model.Bearer Proofs.BearerProofs.
Import ListNotations.
Open Scope N_scope.

Section Sessions.
Variable store : Type.
Variable run_op : pull_opk -> bytes -> store -> N * store.
Variable admin_router : bytes -> bytes -> store -> N * store * bool.

Inductive sreq :=
| SPull (method url_path : bytes) (vals : list bytes)
| SWorker (op : pull_opk) (ep : bytes) (pre_ok : bool) (md : option (list bytes))
| SAdmin (method url_path : bytes) (vals : list bytes).

Definition authorized (c : auth_cfg) (r : sreq) : bool :=
  match r with
  | SPull _ p v => authorize_pull c p v
  | SWorker _ ep _ md => authorize_worker c (trim ep) md
  | SAdmin _ _ v => authorize_admin c v
  end.

(** what one request leaves behind: the store, the pull/worker store calls it issued, and whether it
    reached the Admin router *)
Definition serve (c : auth_cfg) (st : store) (r : sreq) : store * list (pull_opk * bytes) * bool :=
  match r with
  | SPull m p v => let o := pull_serve store run_op c m p v st in (o_store _ o, o_calls _ o, false)
  | SWorker op ep pre md => let o := worker_call store run_op c op ep pre md st in (o_store _ o, o_calls _ o, false)
  | SAdmin m p v => let o := admin_serve store admin_router c m p v st in (ad_store _ o, [], ad_routed _ o)
  end.

Record trace := { t_store : store; t_calls : list (pull_opk * bytes); t_routed : list bool }.

Definition step (c : auth_cfg) (t : trace) (r : sreq) : trace :=
  let '(st', calls, routed) := serve c (t_store t) r in
  {| t_store := st'; t_calls := t_calls t ++ calls;
     t_routed := if routed then t_routed t ++ [true] else t_routed t |}.

Definition session (c : auth_cfg) (reqs : list sreq) (t : trace) : trace := fold_left (step c) reqs t.

Lemma serve_unauthorized c st r : authorized c r = false -> serve c st r = (st, [], false).
Proof.
  intros H. destruct r as [m p v|op ep pre md|m p v]; cbn [authorized serve] in *.
  - destruct (pull_unauthorized_no_effect store run_op c m p v st H) as [Hs [Hc _]].
    cbv zeta. rewrite Hs, Hc. reflexivity.
  - destruct (worker_unauthorized_no_effect store run_op c op ep pre md st H) as [Hs [Hc _]].
    cbv zeta. rewrite Hs, Hc. reflexivity.
  - destruct (admin_unauthorized_no_effect store admin_router c m p v st H) as [_ [Hs Hr]].
    cbv zeta. rewrite Hs, Hr. reflexivity.
Qed.

Lemma step_unauthorized c t r : authorized c r = false -> step c t r = t.
Proof.
  intros H. unfold step. rewrite (serve_unauthorized c (t_store t) r H).
  rewrite app_nil_r. destruct t; reflexivity.
Qed.

Lemma session_ignores_unauthorized c reqs t :
  session c reqs t = session c (filter (authorized c) reqs) t.
Proof.
  unfold session. revert t. induction reqs as [|r tl IH]; intros t; cbn [fold_left filter]; [reflexivity|].
  destruct (authorized c r) eqn:Ha.
  - cbn [fold_left]. apply IH.
  - rewrite (step_unauthorized c t r Ha). apply IH.
Qed.

End Sessions.
