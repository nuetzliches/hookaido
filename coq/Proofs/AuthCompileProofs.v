(** What [compile_auth = true] (Model/AuthCompile.v, the auth block of a route) entails, conjunct by conjunct in the order of
    the definition: [compile_auth_rules]. *)
From Coq Require Import ZArith List Bool NArith.
From HK Require Import Model.NonceCache Model.AuthCompile Proofs.NonceCacheProofs.
Import ListNotations.
Open Scope Z_scope.

Lemma secrets_ok_nonempty known seen l :
  secrets_ok known seen l = true -> forall s k, In (s, k) l -> s <> [].
Proof.
  revert seen. induction l as [|[s0 k0] tl IH]; intros seen H s k Hin; [destruct Hin|].
  simpl in H. destruct s0 as [|b0 s0']; [discriminate|].
  destruct Hin as [E|Hin].
  - inversion E; subst. discriminate.
  - (* whatever the kind of the first secret, the rest of the list is checked as well *)
    destruct k0; apply andb_prop in H; destruct H as [_ H]; exact (IH _ H s k Hin).
Qed.

Lemma existsb_beqb_In u l : existsb (beqb u) l = true <-> In u l.
Proof.
  induction l as [|x tl IH]; simpl; [split; [discriminate | tauto]|].
  rewrite orb_true_iff, IH, beqb_eq. split; intros [H|H]; auto.
Qed.

Lemma basic_ok_spec seen l :
  basic_ok seen l = true ->
  (forall u p, In (u, p) l -> u <> [] /\ p <> []) /\ NoDup (map fst l) /\
  (forall u, In u (map fst l) -> ~ In u seen).
Proof.
  revert seen. induction l as [|[u0 p0] tl IH]; intros seen H.
  - split; [intros ? ? []|]. split; [constructor | intros ? []].
  - simpl in H. destruct u0 as [|a u0']; [discriminate|]. destruct p0 as [|b p0']; [discriminate|].
    apply andb_true_iff in H. destruct H as [H1 H2]. apply negb_true_iff in H1.
    destruct (IH _ H2) as (I1 & I2 & I3). split; [|split].
    + intros u p [E|Hin]; [inversion E; subst; split; discriminate | eapply I1; eauto].
    + simpl. constructor; [|exact I2]. intros Hin. apply (I3 _ Hin). left. reflexivity.
    + intros u [E|Hin] Hs.
      * simpl in E. subst u. apply existsb_beqb_In in Hs. congruence.
      * apply (I3 _ Hin). right. exact Hs.
Qed.

Lemma is_nil_true {A} (l : list A) : is_nil l = true <-> l = [].
Proof. destruct l; simpl; split; congruence. Qed.

Lemma defaults_distinct :
  fold_eq default_sig default_ts = false /\ fold_eq default_sig default_nonce = false /\
  fold_eq default_ts default_nonce = false.
Proof. repeat split; reflexivity. Qed.

Theorem compile_auth_rules known ra :
  compile_auth known ra = true ->
  (forall s k, In (s, k) (ra_secrets ra) -> s <> []) /\
  (let sg := effective (ra_sig ra) default_sig in
   let ts := effective (ra_ts ra) default_ts in
   let nn := effective (ra_nonce ra) default_nonce in
   fold_eq sg ts = false /\ fold_eq sg nn = false /\ fold_eq ts nn = false) /\
  (forall d, ra_tol ra = Some d -> exists v, d = Some v /\ 0 < v) /\
  (ra_basic ra <> [] -> ra_secrets ra = [] /\ has_hmac_options ra = false) /\
  (ra_forward ra = true -> ra_basic ra = [] /\ ra_secrets ra = [] /\ has_hmac_options ra = false) /\
  (forall u p, In (u, p) (ra_basic ra) -> u <> [] /\ p <> []) /\
  NoDup (map fst (ra_basic ra)).
Proof.
  unfold compile_auth.
  intros (((((((((Csec & Cs)%andb_prop & Ct)%andb_prop & Cn)%andb_prop & Ctol)%andb_prop
    & Copts)%andb_prop & Cdist)%andb_prop & Cbasic)%andb_prop & Cmix)%andb_prop & Cfwd)%andb_prop.
  pose proof (secrets_ok_nonempty _ _ _ Csec) as S.
  destruct (basic_ok_spec _ _ Cbasic) as (B1 & B2 & _).
  split; [exact S|]. split.
  { cbn zeta. apply orb_true_iff in Cdist. destruct Cdist as [N|D].
    - (* no secret: then no HMAC option either, and the names are the three defaults *)
      apply is_nil_true in N. rewrite N in Copts. simpl in Copts. rewrite andb_true_r in Copts.
      apply negb_true_iff in Copts. unfold has_hmac_options in Copts.
      destruct (ra_sig ra), (ra_ts ra), (ra_nonce ra), (ra_tol ra); try discriminate.
      exact defaults_distinct.
    - cbn zeta in D. apply andb_true_iff in D. destruct D as [D D3].
      apply andb_true_iff in D. destruct D as [D1 D2].
      repeat split; apply negb_true_iff; assumption. }
  split.
  { intros d E. rewrite E in Ctol. simpl in Ctol. destruct d as [v|]; [|discriminate].
    exists v. split; [reflexivity | apply Z.ltb_lt; exact Ctol]. }
  split.
  { intros NB. apply negb_true_iff in Cmix. apply andb_false_iff in Cmix. destruct Cmix as [X|X].
    - apply negb_false_iff in X. apply is_nil_true in X. congruence.
    - apply orb_false_iff in X. destruct X as [X1 X2]. apply negb_false_iff in X1. apply is_nil_true in X1. auto. }
  split.
  { intros F. rewrite F in Cfwd. simpl in Cfwd. apply negb_true_iff in Cfwd.
    apply orb_false_iff in Cfwd. destruct Cfwd as [X X3]. apply orb_false_iff in X. destruct X as [X1 X2].
    apply negb_false_iff in X1, X2. apply is_nil_true in X1, X2. auto. }
  split; [exact B1 | exact B2].
Qed.

(** non-vacuity: a route with a secret_ref, custom header names and a tolerance compiles *)
Example compile_auth_example :
  compile_auth [[83;49]%N]
    {| ra_secrets := [([83;49]%N, KRef); ([114;97;119;58;107]%N, KInline true)];
       ra_sig := Some [88;45;83;105;103]%N; ra_ts := None; ra_nonce := Some [88;45;78]%N;
       ra_tol := Some (Some 1000); ra_basic := []; ra_forward := false |} = true.
Proof. reflexivity. Qed.
