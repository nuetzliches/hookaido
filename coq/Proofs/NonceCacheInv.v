(** Structural invariants of the nonce cache model (Model/NonceCache.v).

    The Go map `nonce -> expiry` is modelled as an association list.  That is faithful only while the
    list holds each key at most once ([wf]); this file proves that every operation of the model keeps
    [wf] (so [lookup] reads THE entry of a key, as the Go map does), and that the "opportunistic
    cleanup" of seenOnceLocked really bounds the cache: after any call that reaches it, no entry that
    was already expired at that call's clock reading is left, and the entry written is live. *)
From Coq Require Import ZArith List Bool NArith Lia.
From HK Require Import Model.NonceCache Proofs.NonceCacheProofs.
Import ListNotations.
Open Scope Z_scope.

Definition wf (c : cache) : Prop := NoDup (map fst c).
Definition live_at (now : Z) (c : cache) : Prop := Forall (fun kv => now <= snd kv) c.

Lemma wf_nil : wf [].
Proof. constructor. Qed.

Lemma wf_filter (p : bytes * Z -> bool) c : wf c -> wf (filter p c).
Proof.
  unfold wf. induction c as [|[k e] tl IH]; cbn [filter map fst]; intros H; [constructor|].
  apply NoDup_cons_iff in H. destruct H as [Hnin Hnd].
  destruct (p (k, e)); cbn [map fst]; [|apply IH; exact Hnd].
  constructor; [|apply IH; exact Hnd].
  intros Hin. apply Hnin. exact (incl_map fst (incl_filter p tl) k Hin).
Qed.

Lemma wf_cleanup now c : wf c -> wf (cleanup now c).
Proof. apply wf_filter. Qed.

Lemma remove_key_not_in k c : ~ In k (map fst (remove_key k c)).
Proof.
  unfold remove_key. intros H. apply in_map_iff in H. destruct H as [kv [Hk Hin]].
  apply filter_In in Hin. destruct Hin as [_ Hp]. subst k.
  rewrite beqb_refl in Hp. discriminate Hp.
Qed.

Lemma wf_set_key k e c : wf c -> wf (set_key k e c).
Proof.
  intros H. unfold set_key, wf. cbn [map fst]. constructor.
  - apply remove_key_not_in.
  - apply wf_filter. exact H.
Qed.

Lemma wf_seen n x now c : wf c -> wf (snd (seen_once_locked n x now c)).
Proof.
  intros H. destruct (bytes_eq_dec n []) as [->|Hn]; [exact H|].
  rewrite seen_once_locked_eq by exact Hn. apply (wf_cleanup now) in H.
  destruct (lookup n (cleanup now c)); [exact H | apply wf_set_key; exact H].
Qed.

Lemma wf_admit n t tol now c : wf c -> wf (snd (cache_admit n t tol now c)).
Proof.
  intros H. destruct (cache_admit_cases n t tol now c) as [(_ & _ & ->)|[_ ->]]; [exact H|].
  apply wf_seen. exact H.
Qed.

Lemma wf_extend by_ c : wf c -> wf (extend by_ c).
Proof. unfold wf, extend. rewrite map_map. intros H. exact H. Qed.

Lemma wf_inherit new_tol prev :
  (forall ptol c, prev = Some (ptol, c) -> wf c) -> wf (inherit_nonces new_tol prev).
Proof.
  intros H. unfold inherit_nonces. destruct prev as [[ptol c]|]; [|apply wf_nil].
  specialize (H ptol c eq_refl).
  destruct (new_tol - ptol >? 0); [apply wf_extend|]; exact H.
Qed.

(** [wf] is what makes the association list a map: an entry that is in the list is the one
    [lookup] finds. *)
Lemma wf_lookup_in k e c : wf c -> In (k, e) c -> lookup k c = Some e.
Proof.
  unfold wf. induction c as [|[k' e'] tl IH]; cbn [map fst lookup In]; intros Hnd Hin; [contradiction|].
  apply NoDup_cons_iff in Hnd. destruct Hnd as [Hnin Hnd].
  destruct Hin as [Heq|Hin].
  - injection Heq as -> ->. rewrite beqb_refl. reflexivity.
  - destruct (beqb k k') eqn:Hb; [|apply IH; assumption].
    apply beqb_eq in Hb. subst k'. contradiction Hnin. exact (in_map fst tl (k, e) Hin).
Qed.

Lemma live_cleanup now c : live_at now (cleanup now c).
Proof.
  apply Forall_forall. intros kv Hin. apply filter_In in Hin. apply not_after_iff, Hin.
Qed.

Lemma live_set_key now k e c : now <= e -> live_at now c -> live_at now (set_key k e c).
Proof.
  intros He H. constructor; [exact He|]. exact (incl_Forall (incl_filter _ c) H).
Qed.

Lemma live_seen n x now c :
  n <> [] -> now <= x -> live_at now (snd (seen_once_locked n x now c)).
Proof.
  intros Hn Hx. rewrite seen_once_locked_eq by exact Hn. pose proof (live_cleanup now c) as H.
  destruct (lookup n (cleanup now c)); [exact H | apply live_set_key; assumption].
Qed.

Lemma admit_in_window_live n t tol now c :
  n <> [] -> 0 < tol -> - tol <= now - t <= tol ->
  live_at now (snd (cache_admit n t tol now c)).
Proof.
  intros Hn Htol Hw. destruct (cache_admit_cases n t tol now c) as [(_ & Hout & _)|[_ ->]]; [lia|].
  apply live_seen; [exact Hn | lia].
Qed.

(** What happens to a cache: admissions and tolerance-growing reloads.  Each keeps [wf], so every
    cache reachable from the empty one is a map. *)
Inductive cache_op :=
| OAdmit (n : bytes) (t tol now : Z)
| OExtend (by_ : Z).

Definition cache_step (c : cache) (o : cache_op) : cache :=
  match o with
  | OAdmit n t tol now => snd (cache_admit n t tol now c)
  | OExtend by_ => extend by_ c
  end.

Lemma wf_cache_step c o : wf c -> wf (cache_step c o).
Proof. destruct o; [apply wf_admit | apply wf_extend]. Qed.

Lemma wf_fold ops c : wf c -> wf (fold_left cache_step ops c).
Proof.
  revert c. induction ops as [|o ops IH]; cbn [fold_left]; intros c H; [exact H|].
  apply IH, wf_cache_step, H.
Qed.

(** non-vacuity: a concrete cache with two entries, one expired; an in-window admission of a third
    nonce at now = 100 drops the expired entry and leaves a live map of two. *)
Example inv_example :
  let c := [([1%N], 50); ([2%N], 500)] in
  wf c /\
  cache_admit [3%N] 90 20 100 c = (true, [([3%N], 110); ([2%N], 500)]) /\
  live_at 100 (snd (cache_admit [3%N] 90 20 100 c)).
Proof.
  split; [|split].
  - unfold wf. cbn [map fst]. constructor.
    + intros [H|[]]. discriminate H.
    + constructor; [intros []|constructor].
  - vm_compute. reflexivity.
  - apply admit_in_window_live; [discriminate|lia|lia].
Qed.
