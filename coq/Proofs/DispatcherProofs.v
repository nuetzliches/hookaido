From Coq Require Import ZArith QArith List Bool Lia.
From HK Require Import Model.Retry Model.Dispatcher.
Import ListNotations.
Open Scope Z_scope.

(** [classify] looks at a result only through [is_success], [should_retry] and
    [is_policy_denied], and at attempt and retry.max only through [attempt <=? max]; the lemmas
    on [classify] below read it in those terms, in both directions. *)

Lemma success_code_spec c : is_success (RStatus c) = true <-> 200 <= c <= 299.
Proof. unfold is_success. rewrite andb_true_iff, Z.leb_le, Z.ltb_lt. lia. Qed.

Lemma retryable_code_spec c : should_retry (RStatus c) = true <-> (c = 408 \/ c = 429 \/ 500 <= c).
Proof.
  unfold should_retry. rewrite !orb_true_iff, !Z.eqb_eq, Z.leb_le. apply or_assoc.
Qed.

Lemma retryable_not_denied r : should_retry r = true -> is_policy_denied r = false.
Proof. destruct r as [k|c]; [apply negb_true_iff | reflexivity]. Qed.

Lemma classify_success r a m : is_success r = true -> classify r a m = AAck.
Proof. intros Hs. unfold classify. rewrite Hs. reflexivity. Qed.

Lemma classify_retryable r a m : is_success r = false -> should_retry r = true ->
  (a <= m -> classify r a m = ANack) /\ (m < a -> classify r a m = ADead MaxRetries).
Proof.
  intros Hs Hr. unfold classify. rewrite Hs, Hr, (retryable_not_denied r Hr). cbn [andb].
  destruct (Z.leb_spec a m); split; intros; (reflexivity || lia).
Qed.

Lemma classify_denied r a m : is_policy_denied r = true -> classify r a m = ADead PolicyDeniedR.
Proof. destruct r as [[]|c]; try discriminate; reflexivity. Qed.

Lemma classify_permanent r a m :
  is_success r = false -> should_retry r = false -> is_policy_denied r = false ->
  classify r a m = ADead NoRetry.
Proof. intros Hs Hr Hp. unfold classify. rewrite Hs, Hr, Hp. reflexivity. Qed.

Lemma classify_inv r a m act : classify r a m = act ->
  match act with
  | AAck => is_success r = true
  | ANack => a <= m /\ should_retry r = true /\ is_policy_denied r = false
  | ADead MaxRetries => m < a /\ should_retry r = true
  | ADead PolicyDeniedR => is_policy_denied r = true
  | ADead NoRetry => should_retry r = false /\ is_success r = false /\ is_policy_denied r = false
  end.
Proof.
  intros <-. unfold classify. destruct (is_success r); [reflexivity|].
  destruct (should_retry r) eqn:Er; cbn [andb].
  - rewrite (retryable_not_denied r Er). destruct (Z.leb_spec a m); auto.
  - destruct (is_policy_denied r); auto.
Qed.

Lemma nack_implies r a m :
  classify r a m = ANack -> a <= m /\ should_retry r = true /\ is_policy_denied r = false.
Proof. exact (classify_inv r a m ANack). Qed.

Lemma dead_no_retry_implies r a m :
  classify r a m = ADead NoRetry -> should_retry r = false /\ is_success r = false /\ is_policy_denied r = false.
Proof. exact (classify_inv r a m (ADead NoRetry)). Qed.

(** The table of the property statement, for every status code in 100..599 (as [Z]), every error
    kind, every attempt number and every retry.max. *)
Lemma classify_total : forall (c attempt mx : Z) (k : err_kind),
  100 <= c <= 599 ->
  (* 2xx acks *)
  (200 <= c <= 299 -> classify (RStatus c) attempt mx = AAck) /\
  (* 5xx, 429, 408: retried while attempt <= max, then dead max_retries *)
  ((500 <= c <= 599 \/ c = 429 \/ c = 408) ->
      (attempt <= mx -> classify (RStatus c) attempt mx = ANack) /\
      (mx < attempt -> classify (RStatus c) attempt mx = ADead MaxRetries)) /\
  (* every other 4xx, and 1xx / 3xx: dead no_retry whatever the attempt *)
  ((100 <= c <= 199 \/ 300 <= c <= 399 \/ (400 <= c <= 499 /\ c <> 408 /\ c <> 429)) ->
      classify (RStatus c) attempt mx = ADead NoRetry) /\
  (* network errors, timeouts, other errors: retried while attempt <= max, then dead max_retries *)
  ((k = Net \/ k = Timeout \/ k = Other) ->
      (attempt <= mx -> classify (RErr k) attempt mx = ANack) /\
      (mx < attempt -> classify (RErr k) attempt mx = ADead MaxRetries)) /\
  (* egress-policy denial, also wrapped: dead policy_denied, never retried *)
  ((k = PolicyDenied \/ k = PolicyDeniedWrapped) -> classify (RErr k) attempt mx = ADead PolicyDeniedR).
Proof.
  intros c a m k _.
  assert (Hs : ~ 200 <= c <= 299 -> is_success (RStatus c) = false)
    by (intros H; apply not_true_is_false; rewrite success_code_spec; exact H).
  split; [|split; [|split; [|split]]].
  - intros H. apply classify_success, success_code_spec, H.
  - intros H. apply classify_retryable; [apply Hs | apply retryable_code_spec]; lia.
  - intros H. apply classify_permanent; [apply Hs; lia | | reflexivity].
    apply not_true_is_false. rewrite retryable_code_spec. lia.
  - intros H. apply classify_retryable; destruct H as [->|[->| ->]]; reflexivity.
  - intros H. apply classify_denied. destruct H as [->| ->]; reflexivity.
Qed.

(** Finite restatement: the whole 100..599 x {attempt <= max, attempt > max} table by
    computation against a table written from the property text (ranges only). *)
Definition table_action (c : Z) (within : bool) : Z :=
  if (200 <=? c) && (c <=? 299) then 0
  else if (c =? 408) || (c =? 429) || ((500 <=? c) && (c <=? 599)) then (if within then 1 else 4)
  else 2.

(** [n] codes from [c] on, counted up in [Z] (cheap to evaluate) *)
Fixpoint codes_from (n : nat) (c : Z) : list Z :=
  match n with O => [] | S n' => c :: codes_from n' (c + 1) end.

Lemma in_codes_from : forall n lo c, lo <= c < lo + Z.of_nat n -> In c (codes_from n lo).
Proof.
  induction n as [|n IH]; intros lo c H; [lia|]. cbn [codes_from].
  destruct (Z.eq_dec lo c) as [E|E]; [left; exact E | right; apply IH; lia].
Qed.

Definition table_check (c : Z) : bool :=
  (enc_action (classify (RStatus c) 3 3) =? table_action c true) &&
  (enc_action (classify (RStatus c) 4 3) =? table_action c false).

Lemma table_all : forallb table_check (codes_from 500 100) = true.
Proof. vm_compute. reflexivity. Qed.

(** one code checked at attempts 3 and 4 of 3 is checked for all attempts and maxima *)
Lemma table_check_spec c a m : table_check c = true ->
  enc_action (classify (RStatus c) a m) = table_action c (a <=? m).
Proof.
  unfold table_check. rewrite andb_true_iff, !Z.eqb_eq. intros [T1 T2].
  unfold classify in *. destruct (a <=? m); [exact T1 | exact T2].
Qed.

Lemma attempt_recorded : forall rc a r u,
  exists rec, attempt_records rc a r u = [rec] /\
    ar_attempt rec = a /\ ar_result rec = r /\
    (classify r a (rc_max rc) = AAck -> ar_outcome rec = OAcked /\ ar_reason rec = None /\ ar_delay rec = None) /\
    (classify r a (rc_max rc) = ANack -> ar_outcome rec = ORetry /\ ar_reason rec = None /\
        ar_delay rec = Some (delayQ (rc_base rc) (rc_cap rc) a u (rc_jitter rc))) /\
    (forall why, classify r a (rc_max rc) = ADead why -> ar_outcome rec = ODead /\ ar_reason rec = Some why /\ ar_delay rec = None).
Proof.
  intros rc a r u. unfold attempt_records. eexists. split; [reflexivity|].
  cbn [ar_attempt ar_result ar_outcome ar_reason ar_delay]. split; [reflexivity|]. split; [reflexivity|].
  destruct (classify r a (rc_max rc)) as [| |w]; cbn [outcome_of reason_of].
  - split; [intros _; repeat split|]. split; intros; discriminate.
  - split; [intros [=]|]. split; [intros _; repeat split|]. intros why [=].
  - split; [intros [=]|]. split; [intros [=]|]. intros why [= <-]. repeat split.
Qed.

Lemma cycle_S f rc a beh draw k : cycle (S f) rc a beh draw k =
  let recs := attempt_records rc a (beh k) (draw k) in
  match classify (beh k) a (rc_max rc) with
  | AAck => (recs, Some TDelivered)
  | ADead why => (recs, Some (TDead why))
  | ANack => (recs ++ fst (cycle f rc (a + 1) beh draw (S k)), snd (cycle f rc (a + 1) beh draw (S k)))
  end.
Proof.
  cbn [cycle]. destruct (classify (beh k) a (rc_max rc)); try reflexivity.
  destruct (cycle f rc (a + 1) beh draw (S k)). reflexivity.
Qed.

Lemma sends_retry rc a r u tr t : sends (attempt_records rc a r u ++ fst tr, t) = 1 + sends tr.
Proof. unfold sends. cbn [fst]. rewrite app_length. cbn [attempt_records length]. lia. Qed.

(** every retry was within retry.max, so the sends from attempt [a] on are bounded whatever
    the fuel *)
Lemma cycle_sends_le : forall fuel rc a beh draw k,
  sends (cycle fuel rc a beh draw k) <= Z.max 1 (rc_max rc + 2 - a).
Proof.
  induction fuel as [|f IH]; intros rc a beh draw k; [cbn; lia|].
  rewrite cycle_S. cbv zeta. destruct (classify (beh k) a (rc_max rc)) eqn:Ec.
  - cbn. lia.
  - rewrite sends_retry. apply nack_implies in Ec. specialize (IH rc (a + 1) beh draw (S k)). lia.
  - cbn. lia.
Qed.

Lemma cycle_terminates : forall fuel rc a beh draw k,
  (Z.to_nat (rc_max rc + 1 - a) < fuel)%nat ->
  exists t, snd (cycle fuel rc a beh draw k) = Some t.
Proof.
  induction fuel as [|f IH]; intros rc a beh draw k Hf; [lia|].
  rewrite cycle_S. cbv zeta. destruct (classify (beh k) a (rc_max rc)) eqn:Ec.
  - eexists; reflexivity.
  - apply nack_implies in Ec. apply IH. lia.
  - eexists; reflexivity.
Qed.

Lemma cycle_last : forall fuel rc a beh draw k t,
  snd (cycle fuel rc a beh draw k) = Some t ->
  exists n : nat, sends (cycle fuel rc a beh draw k) = Z.of_nat (S n) /\
    (forall i : nat, (i < n)%nat -> classify (beh (k + i)%nat) (a + Z.of_nat i) (rc_max rc) = ANack) /\
    match t with
    | TDelivered => classify (beh (k + n)%nat) (a + Z.of_nat n) (rc_max rc) = AAck
    | TDead why => classify (beh (k + n)%nat) (a + Z.of_nat n) (rc_max rc) = ADead why
    end.
Proof.
  induction fuel as [|f IH]; intros rc a beh draw k t; [discriminate|].
  rewrite cycle_S. cbv zeta. destruct (classify (beh k) a (rc_max rc)) eqn:Ec; cbn [snd].
  - (* an ack ends the cycle with this send *)
    intros [= <-]. exists 0%nat. rewrite Nat.add_0_r, Z.add_0_r.
    split; [reflexivity|]. split; [intros i Hi; lia | exact Ec].
  - (* a retry: the rest of the cycle, one send and one attempt later *)
    intros H. destruct (IH rc (a + 1) beh draw (S k) t H) as (n & Hn & Hi & Ht).
    assert (Hshift : forall i : nat,
      classify (beh (k + S i)%nat) (a + Z.of_nat (S i)) (rc_max rc) =
      classify (beh (S k + i)%nat) (a + 1 + Z.of_nat i) (rc_max rc)).
    { intros i. replace (k + S i)%nat with (S k + i)%nat by lia.
      replace (a + Z.of_nat (S i)) with (a + 1 + Z.of_nat i) by lia. reflexivity. }
    exists (S n). rewrite sends_retry, Hn, Hshift. split; [lia|]. split; [|exact Ht].
    intros [|i] Hlt; [rewrite Nat.add_0_r, Z.add_0_r; exact Ec | rewrite Hshift; apply Hi; lia].
  - (* so does a dead-letter *)
    intros [= <-]. exists 0%nat. rewrite Nat.add_0_r, Z.add_0_r.
    split; [reflexivity|]. split; [intros i Hi; lia | exact Ec].
Qed.

Lemma attempts_bounded : forall rc a0 beh draw,
  0 <= rc_max rc -> 1 <= a0 ->
  let tr := dispatch_cycle rc a0 beh draw in
  1 <= sends tr <= rc_max rc + 1 /\
  sends tr <= Z.max 1 (rc_max rc + 2 - a0) /\
  exists t, snd tr = Some t /\
    (t = TDelivered \/ t = TDead NoRetry \/ t = TDead PolicyDeniedR \/ t = TDead MaxRetries).
Proof.
  intros rc a0 beh draw Hm Ha tr. subst tr. unfold dispatch_cycle.
  pose proof (cycle_sends_le (cycle_fuel rc a0) rc a0 beh draw 0) as Hs.
  destruct (cycle_terminates (cycle_fuel rc a0) rc a0 beh draw 0) as [t Ht]; [unfold cycle_fuel; lia|].
  destruct (cycle_last _ _ _ _ _ _ _ Ht) as (n & Hn & _).
  split; [lia|]. split; [exact Hs|].
  exists t. split; [exact Ht|]. destruct t as [|[| |]]; tauto.
Qed.

(** A target that keeps failing retryably is sent to until retry.max is exceeded: the bound of
    [cycle_sends_le] is reached, from any first attempt number. *)
Lemma always_failing_sends : forall rc a0 beh draw,
  (forall k, should_retry (beh k) = true /\ is_success (beh k) = false) ->
  let tr := dispatch_cycle rc a0 beh draw in
  sends tr = Z.max 1 (rc_max rc + 2 - a0) /\ snd tr = Some (TDead MaxRetries).
Proof.
  intros rc a0 beh draw Hb tr. subst tr. unfold dispatch_cycle.
  destruct (cycle_terminates (cycle_fuel rc a0) rc a0 beh draw 0) as [t Ht]; [unfold cycle_fuel; lia|].
  destruct (cycle_last _ _ _ _ _ _ _ Ht) as (n & Hn & Hi & Hl). rewrite Ht, Hn.
  (* every send before the last was within retry.max *)
  assert (Hlt : forall i, (i < n)%nat -> a0 + Z.of_nat i <= rc_max rc)
    by (intros i Hin; apply (nack_implies _ _ _ (Hi i Hin))).
  (* the last one was not, or it would have been retried too *)
  destruct (Hb (0 + n)%nat) as [Hr Hs].
  destruct (classify_retryable _ (a0 + Z.of_nat n) (rc_max rc) Hs Hr) as [Hle Hgt].
  destruct (Z.le_gt_cases (a0 + Z.of_nat n) (rc_max rc)) as [H|H].
  - rewrite (Hle H) in Hl. destruct t; discriminate.
  - rewrite (Hgt H) in Hl. destruct t as [|why]; [discriminate|]. injection Hl as <-.
    split; [|reflexivity]. destruct n as [|n']; [lia|]. specialize (Hlt n' (Nat.lt_succ_diag_r _)). lia.
Qed.

(** shape of the trace: consecutive attempt numbers, retries then exactly one terminal record *)
Fixpoint consecutive (a : Z) (l : list attempt_rec) : Prop :=
  match l with
  | [] => True
  | r :: tl => ar_attempt r = a /\ consecutive (a + 1) tl
  end.

Definition terminal_matches (t : terminal) (r : attempt_rec) : Prop :=
  match t with
  | TDelivered => ar_outcome r = OAcked /\ ar_reason r = None
  | TDead why => ar_outcome r = ODead /\ ar_reason r = Some why
  end.

(** every record but the last is a retry; the last one carries the terminal outcome *)
Fixpoint retries_then (t : terminal) (l : list attempt_rec) : Prop :=
  match l with
  | [] => False
  | [r] => terminal_matches t r
  | r :: tl => ar_outcome r = ORetry /\ retries_then t tl
  end.

Lemma max_timeout_ub : forall l m,
  m <= fold_left timeout_step l m /\ forall t, In t l -> eff_timeout t <= fold_left timeout_step l m.
Proof.
  induction l as [|x l IH]; intros m; cbn [fold_left]; [split; [lia | intros t []]|].
  destruct (IH (timeout_step m x)) as [Hacc Hin].
  assert (Hstep : m <= timeout_step m x /\ eff_timeout x <= timeout_step m x)
    by (unfold timeout_step; cbv zeta; destruct (Z.ltb_spec m (eff_timeout x)); lia).
  split; [lia|]. intros t [<-|Ht]; [lia | apply Hin, Ht].
Qed.

Lemma eff_timeout_pos t : 0 < eff_timeout t.
Proof. unfold eff_timeout, sec. destruct (Z.leb_spec t 0); lia. Qed.

Lemma eff_timeout_ge t : t <= eff_timeout t.
Proof. unfold eff_timeout, sec. destruct (Z.leb_spec t 0); lia. Qed.

Lemma ttl_covers_microbatch : forall timeouts slack batch t,
  In t timeouts -> 1 <= batch ->
  batch * eff_timeout t + slack <= route_lease_ttl timeouts slack batch /\
  30 * sec <= route_lease_ttl timeouts slack batch.
Proof.
  intros timeouts slack batch t Hin Hb. unfold route_lease_ttl.
  rewrite (proj2 (Z.leb_gt batch 0)) by lia.
  pose proof (proj2 (max_timeout_ub timeouts 0) t Hin) as Hm. fold (max_timeout timeouts) in Hm.
  pose proof (eff_timeout_pos t).
  destruct (Z.ltb_spec (max_timeout timeouts * batch + slack) (30 * sec)); split; nia.
Qed.

Lemma eff_concurrency_pos c : 1 <= eff_concurrency c.
Proof. unfold eff_concurrency. destruct (Z.leb_spec c 0); lia. Qed.

Lemma dequeue_batch_spec c n : 1 <= c ->
  let b := route_dequeue_batch c n in 1 <= b <= 4 /\ b <= c /\ (1 < n -> b <= 2).
Proof.
  intros Hc. unfold route_dequeue_batch. destruct (Z.leb_spec c 1); [lia|].
  destruct (Z.ltb_spec 1 n); [destruct (Z.leb_spec 2 c); lia|]. destruct (Z.leb_spec 4 c); lia.
Qed.

Lemma mutation_batch_id b : 1 <= b <= 4 -> route_mutation_batch b = b.
Proof.
  intros H. unfold route_mutation_batch. destruct (Z.leb_spec b 1); [lia|]. destruct (Z.ltb_spec 4 b); lia.
Qed.

(** non-vacuity: concrete cycles *)
Definition ex_rc : retry_cfg := {| rc_max := 3; rc_base := 1000000000; rc_cap := 30000000000; rc_jitter := 1 # 5 |}.

Example cycle_recovers :
  let tr := dispatch_cycle ex_rc 1 (fun k => if (k <? 2)%nat then RStatus 503 else RStatus 204) (fun _ => 1 # 4) in
  sends tr = 3 /\ snd tr = Some TDelivered /\ map ar_outcome (fst tr) = [ORetry; ORetry; OAcked].
Proof. vm_compute. repeat split. Qed.

Example cycle_exhausts :
  let tr := dispatch_cycle ex_rc 1 (fun _ => RErr Timeout) (fun _ => 0%Q) in
  sends tr = 4 /\ snd tr = Some (TDead MaxRetries) /\ map ar_attempt (fst tr) = [1; 2; 3; 4].
Proof. vm_compute. repeat split. Qed.

Example cycle_policy :
  let tr := dispatch_cycle ex_rc 1 (fun _ => RErr PolicyDeniedWrapped) (fun _ => 0%Q) in
  sends tr = 1 /\ snd tr = Some (TDead PolicyDeniedR).
Proof. vm_compute. repeat split. Qed.

Example cycle_after_dlq_requeue :
  let tr := dispatch_cycle ex_rc 5 (fun _ => RStatus 500) (fun _ => 0%Q) in
  sends tr = 1 /\ snd tr = Some (TDead MaxRetries).
Proof. vm_compute. repeat split. Qed.
