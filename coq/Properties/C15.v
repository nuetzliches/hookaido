(** C15 - Admin publish is validated and all-or-nothing.
    Theorem statements, each derived from the lemmas of Proofs/. *)
From Coq Require Import List NArith ZArith Bool.
From HK Require Import Model.Queue Model.Headers Model.Base64 Model.HeaderValidate Model.Publish.
From HK Require Import Proofs.PublishProofs Proofs.HeaderValidateProofs.
Import ListNotations.
Open Scope Z_scope.

(** POST /messages/publish on a store with EnqueueBatch (memory, SQLite), both flavours, any
    queue limits / drop policy / pre-existing content, any oracle: 200 means published =
    number of items and every item is stored queued; any other status leaves the queue as it
    was (up to the retention prune that every store operation performs first). *)
Theorem C15_publish_atomic_global : forall hb hh fl c now o x a ok items s s' r,
  publish_global hb hh true fl c now o x a ok items s = (s', r) ->
  match r with
  | ROk n => n = Z.of_nat (length items) /\ all_stored (item_ids items) (msgs s') /\
             exists es kept, preflight_global x a ok items = Accept es /\
                             Forall2 (accepted_global x) items es /\
                             msgs s' = kept ++ map (stored hb hh now) es /\
                             (forall m, In m kept -> In m (msgs s))
  | RFail st _ _ => st <> 200 /\ unchanged c now o s s'
  end.
Proof.
  intros hb hh fl c now o x a ok items s s' r H. unfold publish_global in H.
  destruct (preflight_global_cases x a ok items) as [[st [cd [Hr [_ Hs]]]] | He].
  - rewrite Hr in H. inversion H; subst. split; [exact Hs | left; reflexivity].
  - rewrite He in *. apply (finish_atomic hb hh (accepted_global x)) with (items := items) in H; auto.
    + intros it e Ha. apply Ha.
    + intros st cd i. apply items_global_status.
    + intros es Hp. pose proof (items_global_spec x ok items) as S. rewrite Hp in S. apply S.
Qed.

Theorem C15_publish_atomic_scoped : forall hb hh fl c now o x app ep a ok items s s' r,
  publish_scoped hb hh true fl c now o x app ep a ok items s = (s', r) ->
  match r with
  | ROk n => n = Z.of_nat (length items) /\ all_stored (item_ids items) (msgs s') /\
             exists es kept rt ts, preflight_scoped x app ep a ok items = Accept es /\
                             scope_of x app ep = Some (rt, ts) /\
                             Forall2 (accepted_scoped x rt ts) items es /\
                             msgs s' = kept ++ map (stored hb hh now) es /\
                             (forall m, In m kept -> In m (msgs s))
  | RFail st _ _ => st <> 200 /\ unchanged c now o s s'
  end.
Proof.
  intros hb hh fl c now o x app ep a ok items s s' r H. unfold publish_scoped in H.
  destruct (preflight_scoped_cases x app ep a ok items) as [[st [cd [Hr Hs]]] | [rt [ts [Hsc [_ [_ He]]]]]].
  - rewrite Hr in H. inversion H; subst. split; [exact Hs | left; reflexivity].
  - rewrite He in H.
    apply (finish_atomic hb hh (accepted_scoped x rt ts)) with (items := items) in H.
    + destruct r; auto. destruct H as [Hn [Hall [es [kept [Hp H]]]]].
      split; [exact Hn | split; [exact Hall|]]. exists es, kept, rt, ts. rewrite He. auto.
    + intros it e Ha. apply Ha.
    + intros st cd i. apply items_scoped_status.
    + intros es Hp. pose proof (items_scoped_spec x rt ts ok items) as S. rewrite Hp in S. apply S.
Qed.

(** "unchanged" is literal when no retention prune is due *)
Theorem C15_unchanged_no_prune : forall c now o s s',
  prune_due c now (last_prune s) = false -> unchanged c now o s s' -> s' = s.
Proof.
  intros c now o s s' Hp [H | H]; auto. subst. unfold prune. rewrite Hp. reflexivity.
Qed.

(** A refusal that names an item: the item is the offender of the pass that found it, and no
    earlier item offends at that pass (passes: 1 parse incl. in-batch duplicate ids,
    2 managed selector on the global path, 3 semantic per-item checks). *)
Theorem C15_first_offender_global : forall x ok items st c idx,
  items_global x ok items = Reject st c idx ->
  (idx = -1 /\ st = 400 /\ c = CInvalidBody /\ (ok = false \/ ~ count_ok items)) \/
  (exists k it, idx = Z.of_nat k /\ nth_error items k = Some it /\ offender_global x items st c k it).
Proof.
  intros x ok items st c idx H. pose proof (items_global_spec x ok items) as S. rewrite H in S. exact S.
Qed.

Theorem C15_first_offender_scoped : forall x r targets ok items st c idx,
  items_scoped x r targets ok items = Reject st c idx ->
  (idx = -1 /\ st = 400 /\ c = CInvalidBody /\ (ok = false \/ ~ count_ok items)) \/
  (exists k it, idx = Z.of_nat k /\ nth_error items k = Some it /\ offender_scoped x r targets items st c k it).
Proof.
  intros x r targets ok items st c idx H.
  pose proof (items_scoped_spec x r targets ok items) as S. rewrite H in S. exact S.
Qed.

(** request-level refusals carry no item index; otherwise the handler is the item passes *)
Theorem C15_request_level_global : forall x a ok items,
  (exists st c, preflight_global x a ok items = Reject st c (-1) /\ c <> CInvalidBody) \/
  preflight_global x a ok items = items_global x ok items.
Proof.
  intros x a ok items. destruct (preflight_global_cases x a ok items) as [[st [c [Hr [Hc _]]]] | He]; eauto.
Qed.

Theorem C15_request_level_scoped : forall x app ep a ok items,
  (exists st c, preflight_scoped x app ep a ok items = Reject st c (-1)) \/
  (exists r targets, scope_of x app ep = Some (r, targets) /\ targets <> [] /\
                     route_policy_error x r targets true = None /\
                     preflight_scoped x app ep a ok items = items_scoped x r targets ok items).
Proof.
  intros x app ep a ok items.
  destruct (preflight_scoped_cases x app ep a ok items) as [[st [c [Hr _]]] | He]; eauto.
Qed.

(** pass 4 (LookupMessages): the index reported with 409 duplicate_id is the first item
    whose id is already stored *)
Theorem C15_first_existing : forall ids s, NoDup ids ->
  match first_existing ids s with
  | Some k => exists i, nth_error ids k = Some i /\ has_id i (msgs s) = true /\
              forall k' i', (k' < k)%nat -> nth_error ids k' = Some i' -> has_id i' (msgs s) = false
  | None => forall i, In i ids -> has_id i (msgs s) = false
  end.
Proof.
  intros ids s Hnd. rewrite first_existing_find by exact Hnd.
  pose proof (find_index_spec (fun i => has_id i (msgs s)) ids 0) as H.
  destruct (find_index (fun i => has_id i (msgs s)) ids 0); [|exact H].
  destruct H as [k [i [-> [Hn [Hp Hpre]]]]]. exists i. auto.
Qed.

Theorem C15_batch_ids_distinct : forall req items, parse_ok_all req items -> NoDup (item_ids items).
Proof. intros req items H. apply (parse_ok_from_nodup req items [] H). Qed.

(** what an accepted batch looks like, item by item *)
Theorem C15_accept_global : forall x ok items es,
  items_global x ok items = Accept es ->
  ok = true /\ count_ok items /\ parse_ok_all true items /\
  (forall it, In it items -> has_managed_selector it = false) /\
  Forall2 (accepted_global x) items es.
Proof.
  intros x ok items es H. pose proof (items_global_spec x ok items) as S. rewrite H in S. exact S.
Qed.

Theorem C15_accept_scoped : forall x r targets ok items es,
  items_scoped x r targets ok items = Accept es ->
  ok = true /\ count_ok items /\ parse_ok_all false items /\
  Forall2 (accepted_scoped x r targets) items es.
Proof.
  intros x r targets ok items es H.
  pose proof (items_scoped_spec x r targets ok items) as S. rewrite H in S. exact S.
Qed.

(** messages created by publish: queued, never attempted, not leased, one target that belongs
    to the route, payload within max_body, headers valid and within max_headers *)
Theorem C15_published_shape_global : forall hb hh x items es now e,
  Forall2 (accepted_global x) items es -> In e es ->
  shape_ok hb hh x now e (stored hb hh now e) /\
  exists it, In it items /\ payload_of (i_payload it) = Some (pe_payload e) /\ pe_headers e = i_headers it.
Proof. exact published_shape_global. Qed.

Theorem C15_published_shape_scoped : forall hb hh x r ts items es now e,
  Forall2 (accepted_scoped x r ts) items es -> ts = targets_for x r -> In e es ->
  shape_ok hb hh x now e (stored hb hh now e) /\
  exists it, In it items /\ payload_of (i_payload it) = Some (pe_payload e) /\ pe_headers e = i_headers it.
Proof.
  intros hb hh x r ts items es now e F Hts Hin. destruct (Forall2_in_r _ _ _ _ F Hin) as [it [Hit Ha]].
  destruct Ha as [_ _ Ht _ Henv]. subst ts. split.
  - exact (shape_of_env hb hh x now it e _ _ Henv Ht).
  - exists it. destruct Henv. auto.
Qed.

(** ValidateMap accepts exactly: non-empty token names, values without CR/LF/DEL/control bytes
    (TAB is allowed) *)
Theorem C15_validate_map_spec : forall m, validate_map m = forallb entry_ok m.
Proof. induction m; simpl; auto. rewrite validate_entry_spec. f_equal. auto. Qed.

(** The handler's per-item fallback for a store WITHOUT BatchEnqueuer (in this tree:
    PostgresStore) is not all-or-nothing: two valid items, room for one - the first is stored,
    the request fails with 503 naming item 1; the batching path refuses the same request
    without storing anything.  (The positive statement for such stores is refuted.) *)
Theorem C15_fallback_not_atomic_refuted :
  exists fl c now o x a items s',
    publish_global hash_bytes hash_smap false fl c now o x a true items init = (s', RFail 503 CQueueFull 1)
    /\ msgs s' <> msgs init
    /\ prune_due c now (last_prune init) = false
    /\ publish_global hash_bytes hash_smap true fl c now o x a true items init = (init, RFail 503 CQueueFull (-1)).
Proof. exact fallback_not_atomic_refuted. Qed.

Print Assumptions C15_publish_atomic_global.
Print Assumptions C15_publish_atomic_scoped.
Print Assumptions C15_unchanged_no_prune.
Print Assumptions C15_first_offender_global.
Print Assumptions C15_first_offender_scoped.
Print Assumptions C15_request_level_global.
Print Assumptions C15_request_level_scoped.
Print Assumptions C15_first_existing.
Print Assumptions C15_batch_ids_distinct.
Print Assumptions C15_accept_global.
Print Assumptions C15_accept_scoped.
Print Assumptions C15_published_shape_global.
Print Assumptions C15_published_shape_scoped.
Print Assumptions C15_validate_map_spec.
Print Assumptions C15_fallback_not_atomic_refuted.
