(** Soundness of the atomic-replace checker of Model/FsAtomic.v: a trace accepted by
    [replace_ok] leaves, at EVERY crash point and for EVERY persistence choice of the adversary,
    the complete old or the complete new content under P. *)
From Coq Require Import List Bool Arith NArith Lia.
From HK Require Import Model.FsAtomic.
Import ListNotations.

Lemma path_eqb_eq a b : path_eqb a b = true <-> a = b.
Proof.
  destruct a as [d1 n1], b as [d2 n2]. unfold path_eqb; simpl. split.
  - intros H. apply andb_true_iff in H. destruct H as [H1 H2]. apply N.eqb_eq in H1, H2. subst. reflexivity.
  - intros [= <- <-]. rewrite !N.eqb_refl. reflexivity.
Qed.

Lemma path_eqb_refl a : path_eqb a a = true.
Proof. apply path_eqb_eq. reflexivity. Qed.

Lemma path_eqb_neq a b : path_eqb a b = false <-> a <> b.
Proof. rewrite <- path_eqb_eq. symmetry. apply not_true_iff_false. Qed.

Lemma path_eqb_sym a b : path_eqb a b = path_eqb b a.
Proof. unfold path_eqb. rewrite (N.eqb_sym (p_dir a)), (N.eqb_sym (p_name a)). reflexivity. Qed.

Lemma bytes_eqb_eq a : forall b, bytes_eqb a b = true <-> a = b.
Proof.
  induction a as [|x a IH]; destruct b as [|y b]; simpl; split; intros H; try reflexivity; try discriminate.
  - apply andb_true_iff in H. destruct H as [H1 H2]. apply N.eqb_eq in H1. apply IH in H2. subst. reflexivity.
  - inversion H; subst. rewrite N.eqb_refl. simpl. apply IH. reflexivity.
Qed.

Lemma lookup_remove p q ns :
  lookup p (remove q ns) = if path_eqb p q then None else lookup p ns.
Proof.
  induction ns as [|[r i] tl IH]; simpl.
  - destruct (path_eqb p q); reflexivity.
  - destruct (path_eqb q r) eqn:Eqr; simpl; rewrite IH.
    + apply path_eqb_eq in Eqr. subst r. destruct (path_eqb p q); reflexivity.
    + destruct (path_eqb p r) eqn:Epr; [|reflexivity].
      apply path_eqb_eq in Epr. subst r. rewrite path_eqb_sym, Eqr. reflexivity.
Qed.

Lemma lookup_link p q i ns :
  lookup p (apply_ns ns (NLink q i)) = if path_eqb p q then Some i else lookup p ns.
Proof. simpl. destruct (path_eqb p q) eqn:E; [reflexivity|]. rewrite lookup_remove, E. reflexivity. Qed.

Lemma lookup_unlink p q ns :
  lookup p (apply_ns ns (NUnlink q)) = if path_eqb p q then None else lookup p ns.
Proof. simpl. apply lookup_remove. Qed.

Lemma lookup_rename p a b ns :
  lookup p (apply_ns ns (NRename a b)) =
  match lookup a ns with
  | Some i => if path_eqb p b then Some i else if path_eqb p a then None else lookup p ns
  | None => lookup p ns
  end.
Proof.
  simpl. destruct (lookup a ns) as [i|]; [|reflexivity]. simpl.
  destruct (path_eqb p b) eqn:E; [reflexivity|]. rewrite !lookup_remove, E. reflexivity.
Qed.

(** The journal of a replacement in full: the temp file linked, then renamed onto P. *)
Lemma lookup_link_rename p t it P ns :
  lookup p (fold_left apply_ns [NLink t it; NRename t P] ns) =
  if path_eqb p P then Some it else if path_eqb p t then None else lookup p ns.
Proof.
  cbn [fold_left]. rewrite lookup_rename, lookup_link, path_eqb_refl.
  destruct (path_eqb p P); [reflexivity|]. destruct (path_eqb p t) eqn:E; [reflexivity|].
  rewrite lookup_link, E. reflexivity.
Qed.

Lemma crash_data_clean b n m : crash_data (mkIst b []) n m = b.
Proof. unfold crash_data; simpl. destruct n; reflexivity. Qed.

Lemma upd_inode_same m i v : upd_inode m i v i = v.
Proof. unfold upd_inode. rewrite Nat.eqb_refl. reflexivity. Qed.

Lemma upd_inode_other m i v j : j <> i -> upd_inode m i v j = m j.
Proof. unfold upd_inode. intros H. apply Nat.eqb_neq in H. rewrite H. reflexivity. Qed.

Lemma upd_fd_same m f v : upd_fd m f v f = v.
Proof. unfold upd_fd. rewrite N.eqb_refl. reflexivity. Qed.

(** The transition table of [check_step] as a relation, each test turned into the equation it decides. *)
Inductive accepts (P : path) (NEW : bytes) : ck -> fsop -> ck -> Prop :=
| AcCreate f t : p_dir t = p_dir P -> t <> P -> accepts P NEW KStart (Create f t) (KTmp f t [] false false)
| AcWrite f t acc synced b :
    accepts P NEW (KTmp f t acc synced false) (Write f b) (KTmp f t (acc ++ b) false false)
| AcChmod f t acc synced :
    accepts P NEW (KTmp f t acc synced false) (Chmod f) (KTmp f t acc synced false)
| AcFsync f t acc synced :
    accepts P NEW (KTmp f t acc synced false) (Fsync f) (KTmp f t acc true false)
| AcClose f t acc synced :
    accepts P NEW (KTmp f t acc synced false) (Close f) (KTmp f t acc synced true)
| AcRename f t closed : accepts P NEW (KTmp f t NEW true closed) (Rename t P) (KRenamed f closed)
| AcCloseRenamed f : accepts P NEW (KRenamed f false) (Close f) (KRenamed f true)
| AcOpenDir f g : accepts P NEW (KRenamed f true) (OpenDir g (p_dir P)) (KDirOpen g)
| AcFsyncDir g : accepts P NEW (KDirOpen g) (Fsync g) (KDirSynced g)
| AcCloseDir g : accepts P NEW (KDirSynced g) (Close g) KDone.

Lemma if_some {A} (b : bool) (x y : A) : (if b then Some x else None) = Some y -> b = true /\ x = y.
Proof. destruct b; [intros [= <-]; auto|discriminate]. Qed.

(** Every accepting entry of [check_step] is [if test then Some c' else None], some of them under a
    pattern for [closed]; [E] below is the test of the entry.  The reflection lemmas are applied,
    not rewritten with: setoid rewriting in eleven goals costs more than the case split itself. *)
Lemma check_step_accepts P NEW c op c' : check_step P NEW c op = Some c' -> accepts P NEW c op c'.
Proof.
  intros H.
  destruct c as [|f t acc synced closed|f closed|g|g|], op; simpl in H; try discriminate H;
    try (destruct closed; try discriminate H);
    apply if_some in H; destruct H as [E <-].
  (* eight entries compare one descriptor or directory number *)
  all: try (apply N.eqb_eq in E; subst; constructor).
  { (* Create: in P's directory, under another name *)
    apply andb_true_iff in E as [Ed Et]. apply N.eqb_eq in Ed. apply negb_true_iff, path_eqb_neq in Et.
    constructor; assumption. }
  (* Rename, with the descriptor closed or still open: the temp file onto P, fsynced, holding NEW *)
  all: apply andb_true_iff in E as [E En]; apply andb_true_iff in E as [E ->];
    apply andb_true_iff in E as [Ea Eb].
  all: apply path_eqb_eq in Ea, Eb; apply bytes_eqb_eq in En; subst; constructor.
Qed.

Lemma check_run_prefix P NEW : forall tr c c' n,
  check_run P NEW c tr = Some c' -> exists c'', check_run P NEW c (firstn n tr) = Some c''.
Proof.
  induction tr as [|op tl IH]; intros c c' n H.
  - rewrite firstn_nil. exists c. reflexivity.
  - destruct n as [|n]; [exists c; reflexivity|]. simpl in *.
    destruct (check_step P NEW c op) as [c1|]; [|discriminate]. apply (IH c1 c' n H).
Qed.

Lemma replace_ok_check P NEW tr : replace_ok P NEW tr = true -> check_run P NEW KStart tr = Some KDone.
Proof.
  unfold replace_ok. destruct (check_run P NEW KStart tr) as [c|]; [|discriminate].
  destruct c; try discriminate. reflexivity.
Qed.

Definition old_ok (s : fs) (P : path) (old : option bytes) : Prop :=
  match old with
  | Some b => exists i, lookup P (ns_dur s) = Some i /\ inodes s i = mkIst b []
  | None => lookup P (ns_dur s) = None
  end.

Lemma init_old_ok s P old : init_ok s P old -> old_ok s P old.
Proof. intros [_ [_ H]]. exact H. Qed.

Definition bound (s : fs) (n : nat) : Prop := forall p i, lookup p (ns_dur s) = Some i -> i < n.

(** While the replacement is under way: the journal holds the link of the temp file [t] (inode [it])
    followed by [rest]; every durably named inode is below [it], so writes to [it] leave P's durable
    binding and data as they were. *)
Definition staged (s : fs) (P : path) (old : option bytes) (t : path) (it : inode) (rest : list nsop) : Prop :=
  ns_pend s = NLink t it :: rest /\ t <> P /\ bound s it /\ it < fresh s /\ old_ok s P old.

(** The invariant: what the file system looks like in each state of the checker. *)
Definition Inv (P : path) (NEW : bytes) (old : option bytes) (c : ck) (s : fs) : Prop :=
  match c with
  | KStart => init_ok s P old
  | KTmp f t acc synced closed => exists it,
      staged s P old t it []
      /\ (closed = false -> fdt s f = Some (TFile it))
      /\ vol_data (inodes s it) = acc
      /\ (synced = true -> i_pend (inodes s it) = [])
  | KRenamed _ _ => exists t it,
      staged s P old t it [NRename t P] /\ inodes s it = mkIst NEW []
  | KDirOpen g => exists t it d,
      staged s P old t it [NRename t P] /\ inodes s it = mkIst NEW [] /\ fdt s g = Some (TDir d)
  | KDirSynced _ | KDone => init_ok s P (Some NEW)
  end.

Lemma old_ok_frame s s' P old n :
  ns_dur s' = ns_dur s -> bound s n -> (forall i, i < n -> inodes s' i = inodes s i) ->
  old_ok s P old -> old_ok s' P old.
Proof.
  intros Hns Hb Hi Ho. unfold old_ok in *. rewrite Hns. destruct old as [b|]; [|exact Ho].
  destruct Ho as [i [Hl Hin]]. exists i. split; [exact Hl|]. rewrite Hi; [exact Hin|]. apply (Hb P). exact Hl.
Qed.

Lemma staged_set_inode s P old t it rest v fd :
  staged s P old t it rest ->
  staged (mkFs (ns_dur s) (ns_pend s) (upd_inode (inodes s) it v) fd (fresh s)) P old t it rest.
Proof.
  intros (Hp & Ht & Hb & Hf & Ho). repeat split; try assumption.
  apply (old_ok_frame s _ P old it); [reflexivity|exact Hb| |exact Ho].
  intros i Hi. apply upd_inode_other. lia.
Qed.

Lemma step_inv P NEW old c s op c' :
  Inv P NEW old c s -> check_step P NEW c op = Some c' -> Inv P NEW old c' (step s op).
Proof.
  intros HI Hc. apply check_step_accepts in Hc. destruct Hc; simpl in HI.
  - (* Create: the new inode is [fresh s] *)
    destruct HI as (Hp & Hb & Ho). exists (fresh s). simpl. rewrite Hp, upd_fd_same, upd_inode_same.
    repeat split; try assumption; try discriminate; [apply Nat.lt_succ_diag_r|].
    apply (old_ok_frame s _ P old (fresh s)); [reflexivity|exact Hb| |exact Ho].
    intros i Hi. apply upd_inode_other. lia.
  - (* Write *)
    destruct HI as (it & Hst & Hfd & Hv & _). simpl. rewrite (Hfd eq_refl).
    exists it. split; [apply staged_set_inode, Hst|]. simpl. rewrite upd_inode_same.
    split; [intros _; exact (Hfd eq_refl)|]. split; [|discriminate].
    unfold vol_data; simpl. rewrite fold_left_app, <- Hv. reflexivity.
  - (* Chmod *)
    exact HI.
  - (* Fsync of the file *)
    destruct HI as (it & Hst & Hfd & Hv & _). simpl. rewrite (Hfd eq_refl).
    exists it. split; [apply staged_set_inode, Hst|]. simpl. rewrite upd_inode_same.
    split; [intros _; exact (Hfd eq_refl)|]. split; [exact Hv|reflexivity].
  - (* Close *)
    destruct HI as (it & Hst & _ & Hd). exists it. split; [exact Hst|]. split; [discriminate|exact Hd].
  - (* Rename: synced, so the inode holds exactly NEW with nothing pending *)
    destruct HI as (it & (Hp & Hrest) & _ & Hv & Hs). exists t, it. simpl.
    split; [split; [rewrite Hp; reflexivity|exact Hrest]|].
    specialize (Hs eq_refl). destruct (inodes s it) as [d pe]. simpl in Hs. subst pe.
    change (d = NEW) in Hv. subst d. reflexivity.
  - (* Close after the rename *)
    exact HI.
  - (* OpenDir *)
    destruct HI as (t & it & Hst & Hi). exists t, it, (p_dir P).
    split; [exact Hst|]. split; [exact Hi|apply upd_fd_same].
  - (* Fsync of the directory: the journal becomes the durable name space *)
    destruct HI as (t & it & d & (Hp & _ & Hb & Hf & _) & Hi & Hfd). simpl. rewrite Hfd.
    assert (Hlk : forall p, lookup p (ns_vol s) =
                           if path_eqb p P then Some it else if path_eqb p t then None else lookup p (ns_dur s)).
    { intros p. unfold ns_vol. rewrite Hp. apply lookup_link_rename. }
    split; [reflexivity|]. simpl. split.
    + intros p i. rewrite Hlk. destruct (path_eqb p P); [intros [= <-]; exact Hf|].
      destruct (path_eqb p t); [discriminate|]. intros Hx. apply Hb in Hx. lia.
    + exists it. rewrite Hlk, path_eqb_refl. split; [reflexivity|exact Hi].
  - (* Close of the directory *)
    exact HI.
Qed.

Lemma run_inv P NEW old : forall tr c s c',
  Inv P NEW old c s -> check_run P NEW c tr = Some c' -> Inv P NEW old c' (run s tr).
Proof.
  induction tr as [|op tl IH]; intros c s c' HI Hc; simpl in *.
  - inversion Hc; subst. exact HI.
  - destruct (check_step P NEW c op) as [c1|] eqn:E; [|discriminate].
    apply (IH c1 (step s op) c'); [|exact Hc]. apply (step_inv P NEW old c s op c1); assumption.
Qed.

Lemma crash_read_clean s k ch P i b :
  lookup P (crash_ns s k) = Some i -> inodes s i = mkIst b [] -> crash_read s k ch P = Some b.
Proof. unfold crash_read. intros -> ->. rewrite crash_data_clean. reflexivity. Qed.

Lemma crash_read_old s k ch P old :
  old_ok s P old -> lookup P (crash_ns s k) = lookup P (ns_dur s) -> crash_read s k ch P = old.
Proof.
  unfold old_ok. destruct old as [b|].
  - intros [i [Hl Hi]] E. apply (crash_read_clean _ _ _ _ i); [rewrite E; exact Hl|exact Hi].
  - intros Hl E. unfold crash_read. rewrite E, Hl. reflexivity.
Qed.

Lemma init_ok_crash s P o k ch : init_ok s P o -> crash_read s k ch P = o.
Proof.
  intros Hi. apply crash_read_old; [apply init_old_ok, Hi|].
  destruct Hi as [Hp _]. unfold crash_ns. rewrite Hp, firstn_nil. reflexivity.
Qed.

(** Only the rename touches P's binding: a crash that keeps nothing beyond the link reads the old content. *)
Lemma staged_crash_old s P old t it rest k ch :
  staged s P old t it rest -> k <= 1 \/ rest = [] -> crash_read s k ch P = old.
Proof.
  intros (Hp & Ht & _ & _ & Ho) Hk. apply crash_read_old; [exact Ho|].
  unfold crash_ns. rewrite Hp. destruct k as [|k]; [reflexivity|]. cbn [firstn].
  replace (firstn k rest) with (@nil nsop).
  - cbn [fold_left]. rewrite lookup_link. apply path_eqb_neq in Ht. rewrite path_eqb_sym, Ht. reflexivity.
  - destruct Hk as [Hk| ->]; [|symmetry; apply firstn_nil]. destruct k; [reflexivity|lia].
Qed.

Lemma renamed_crash s P NEW old t it k ch :
  staged s P old t it [NRename t P] -> inodes s it = mkIst NEW [] ->
  crash_read s k ch P = old \/ crash_read s k ch P = Some NEW.
Proof.
  intros Hst Hi. destruct (Nat.le_gt_cases k 1) as [Hk|Hk].
  - left. apply (staged_crash_old s P old t it _ k ch Hst). left. exact Hk.
  - right. apply (crash_read_clean _ _ _ _ it); [|exact Hi]. destruct Hst as (Hp & _).
    unfold crash_ns. rewrite Hp, firstn_all2 by (simpl; lia).
    rewrite lookup_link_rename, path_eqb_refl. reflexivity.
Qed.

Lemma inv_crash P NEW old c s :
  Inv P NEW old c s -> forall k ch, crash_read s k ch P = old \/ crash_read s k ch P = Some NEW.
Proof.
  intros HI k ch. destruct c as [|f t acc synced closed|f closed|g|g|]; simpl in HI.
  - left. apply init_ok_crash, HI.
  - destruct HI as (it & Hst & _). left. apply (staged_crash_old s P old t it [] k ch Hst). right. reflexivity.
  - destruct HI as (t & it & Hst & Hi). apply (renamed_crash s P NEW old t it k ch Hst Hi).
  - destruct HI as (t & it & d & Hst & Hi & _). apply (renamed_crash s P NEW old t it k ch Hst Hi).
  - right. apply init_ok_crash, HI.
  - right. apply init_ok_crash, HI.
Qed.

(** Every crash point of an accepted trace is in a state the invariant describes, and once the
    call has returned the state is again a start state, now for NEW (so replacements compose:
    apply, then roll back, then apply again ...). *)
Theorem replace_ok_inv P NEW old tr s0 :
  init_ok s0 P old -> replace_ok P NEW tr = true ->
  (forall n, exists c, Inv P NEW old c (run s0 (firstn n tr))) /\ init_ok (run s0 tr) P (Some NEW).
Proof.
  intros Hi Hok. apply replace_ok_check in Hok. split.
  - intros n. destruct (check_run_prefix P NEW tr KStart KDone n Hok) as [c Hc].
    exists c. apply (run_inv P NEW old (firstn n tr) KStart s0 c Hi Hc).
  - apply (run_inv P NEW old tr KStart s0 KDone Hi Hok).
Qed.

(** A concurrent reader (the --watch reload, another mutation) is a special adversary: it sees
    everything that is pending. *)
Lemma read_vol_is_crash s p :
  read_vol s p = crash_read s (length (ns_pend s)) (fun i => (length (i_pend (inodes s i)), 0)) p.
Proof.
  unfold read_vol, crash_read, ns_vol, crash_ns. rewrite firstn_all.
  destruct (lookup p (fold_left apply_ns (ns_pend s) (ns_dur s))) as [i|]; [|reflexivity].
  simpl. unfold crash_data, vol_data. rewrite firstn_all.
  assert (Hn : nth_error (i_pend (inodes s i)) (length (i_pend (inodes s i))) = None)
    by (apply nth_error_None; lia).
  rewrite Hn. reflexivity.
Qed.

(** A crash point of [tr1 ++ tr2] is one of [tr1], or all of [tr1] and then one of [tr2]. *)
Lemma firstn_app_cases {A} n (l1 l2 : list A) :
  firstn n (l1 ++ l2) = firstn n l1 \/ exists m, firstn n (l1 ++ l2) = l1 ++ firstn m l2.
Proof.
  rewrite firstn_app. destruct (Nat.le_gt_cases n (length l1)) as [H|H].
  - left. replace (n - length l1) with 0 by lia. apply app_nil_r.
  - right. exists (n - length l1). rewrite firstn_all2 by lia. reflexivity.
Qed.

Lemma run_app s tr1 tr2 : run s (tr1 ++ tr2) = run (run s tr1) tr2.
Proof. apply fold_left_app. Qed.

(** * Non-vacuity: concrete traces *)
Definition exP : path := mkPath 1 10.          (* dir 1, name "Hookaidofile" *)
Definition exT : path := mkPath 1 11.          (* dir 1, name ".Hookaidofile.tmp-123" *)
Definition exTother : path := mkPath 2 11.     (* same name in another directory (os.TempDir) *)
Definition exOLD : bytes := [111; 108; 100]%N.
Definition exNEW : bytes := [110; 101; 119; 33]%N.
Definition exS0 : fs := mkFs [(exP, 0)] [] (fun _ => mkIst exOLD []) (fun _ => None) 1.

(** the shape strace shows for writeFileAtomic *)
Definition good_trace : list fsop :=
  [Create 3 exT; Chmod 3; Write 3 exNEW; Fsync 3; Close 3; Rename exT exP; OpenDir 3 1; Fsync 3; Close 3].

Example good_trace_accepted : replace_ok exP exNEW good_trace = true.
Proof. vm_compute. reflexivity. Qed.

(** two short writes instead of one; close after the rename: still a correct replace *)
Example good_trace_variant_accepted :
  replace_ok exP exNEW [Create 5 exT; Write 5 [110; 101]%N; Write 5 [119; 33]%N; Fsync 5; Rename exT exP;
                        Close 5; OpenDir 5 1; Fsync 5; Close 5] = true.
Proof. vm_compute. reflexivity. Qed.

Definition no_fsync_trace : list fsop :=
  [Create 3 exT; Chmod 3; Write 3 exNEW; Close 3; Rename exT exP; OpenDir 3 1; Fsync 3; Close 3].
Definition other_dir_trace : list fsop :=
  [Create 3 exTother; Chmod 3; Write 3 exNEW; Fsync 3; Close 3; Rename exTother exP; OpenDir 3 1; Fsync 3; Close 3].
Definition partial_write_trace : list fsop :=
  [Create 3 exT; Write 3 [110; 101]%N; Fsync 3; Close 3; Rename exT exP; OpenDir 3 1; Fsync 3; Close 3].
Definition write_after_fsync_trace : list fsop :=
  [Create 3 exT; Write 3 [110; 101]%N; Fsync 3; Write 3 [119; 33]%N; Close 3; Rename exT exP; OpenDir 3 1; Fsync 3; Close 3].
Definition no_dir_fsync_trace : list fsop :=
  [Create 3 exT; Chmod 3; Write 3 exNEW; Fsync 3; Close 3; Rename exT exP].
Definition in_place_trace : list fsop :=
  [OpenTrunc 3 exP; Write 3 exNEW; Fsync 3; Close 3].
Definition stray_op_trace : list fsop :=
  [Create 3 exT; Write 3 exNEW; Fsync 3; Close 3; Other; Rename exT exP; OpenDir 3 1; Fsync 3; Close 3].
Definition wrong_target_trace : list fsop :=
  [Create 3 exT; Write 3 exNEW; Fsync 3; Close 3; Rename exT (mkPath 1 12); OpenDir 3 1; Fsync 3; Close 3].

Example bad_traces_rejected :
  map (replace_ok exP exNEW)
      [no_fsync_trace; other_dir_trace; partial_write_trace; write_after_fsync_trace;
       no_dir_fsync_trace; in_place_trace; stray_op_trace; wrong_target_trace; []]
  = [false; false; false; false; false; false; false; false; false].
Proof. vm_compute. reflexivity. Qed.

(** The threat is real in this semantics: the rejected traces do have bad crash states. *)
Example no_fsync_loses_data :
  crash_read (run exS0 no_fsync_trace) 2 (fun _ => (0, 0)) exP = Some []            (* empty file under P *)
  /\ crash_read (run exS0 (firstn 5 no_fsync_trace)) 2 (fun _ => (0, 2)) exP = Some [110; 101]%N.  (* torn *)
Proof. split; vm_compute; reflexivity. Qed.

Example write_after_fsync_loses_tail :
  crash_read (run exS0 write_after_fsync_trace) 2 (fun _ => (0, 0)) exP = Some [110; 101]%N.
Proof. vm_compute. reflexivity. Qed.

Example in_place_is_not_atomic :
  crash_read (run exS0 (firstn 2 in_place_trace)) 0 (fun _ => (1, 0)) exP = Some []
  /\ crash_read (run exS0 (firstn 2 in_place_trace)) 0 (fun _ => (1, 3)) exP = Some [110; 101; 119]%N.
Proof. split; vm_compute; reflexivity. Qed.

Example no_dir_fsync_not_durable :
  crash_read (run exS0 no_dir_fsync_trace) 0 (fun _ => (0, 0)) exP = Some exOLD.   (* returned, yet OLD after reboot *)
Proof. vm_compute. reflexivity. Qed.

(** and the accepted trace, at each of its 10 crash points, with a few adversaries *)
Example good_trace_all_points :
  forallb (fun n => forallb (fun k => forallb (fun m =>
     match crash_read (run exS0 (firstn n good_trace)) k (fun _ => (m, 1)) exP with
     | Some b => bytes_eqb b exOLD || bytes_eqb b exNEW
     | None => false
     end) [0; 1; 2]) [0; 1; 2; 3]) (seq 0 10) = true.
Proof. vm_compute. reflexivity. Qed.
