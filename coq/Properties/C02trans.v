(** C02 / C14 - the state machine, tied to the Go sources by translation.
    Gen/Transitions.v is regenerated on every run by translate/transitions.go from
    internal/queue/memory.go, sqlite.go and postgres.go (Go state checks and SQL WHERE / SET clauses):
    one row per place that writes the state of a stored message - operation, accepted source states,
    target state (or deletion), lifecycle columns written.  Vocabulary: Model/TransTable.v.
    What is evaluated on the generated tables are checks whose meaning Proofs/TransitionsProofs.v proves for any table.
    A change of a guard, a target or a written column in any of the three stores changes the
    generated tables and one of these theorems stops checking. *)
From Coq Require Import List ZArith NArith Bool.
From HK Require Import Model.Queue Model.TransTable Gen.Transitions Proofs.QueueBase Proofs.QueueStep
  Proofs.TransitionsProofs.
Import ListNotations.
Open Scope Z_scope.

(** the translator understood every state-writing statement of the three files *)
Theorem C02trans_extraction_complete : extraction_ok = true.
Proof. reflexivity. Qed.

(** memory store: every row accepts exactly the states the model's operation accepts
    ([queuedb], [is_leased], [allowed_from]) and does to an accepted message exactly what the model
    does ([pm_lease], [release], [lease_effect], [manage_effect]) - for all messages, times,
    configurations; its age rules together are [prune_age_eligible]; every operation has its row *)
Theorem C02trans_memory_matches_model :
  Forall row_sound memory_table /\ prune_rules_exact memory_table /\ covers true memory_table = true.
Proof.
  split; [|split].
  - apply table_sound. vm_compute. reflexivity.
  - apply age_rules_exact. vm_compute. reflexivity.
  - vm_compute. reflexivity.
Qed.

Theorem C02trans_sqlite_matches_model :
  Forall row_sound sqlite_table /\ prune_rules_exact sqlite_table /\ covers true sqlite_table = true.
Proof.
  split; [|split].
  - apply table_sound. vm_compute. reflexivity.
  - apply age_rules_exact. vm_compute. reflexivity.
  - vm_compute. reflexivity.
Qed.

(** memory and SQLite have the same table, row for row *)
Theorem C02trans_sqlite_matches_memory : same_table memory_table sqlite_table = true.
Proof. vm_compute. reflexivity. Qed.

(** Postgres (not executable in the sandbox - this is its only tie): same machine as SQLite, and the
    tables differ exactly in the listed rows (dequeue also clears dead_reason; age rules compare
    received_at strictly; no batch enqueue) *)
Theorem C02trans_postgres_matches_sqlite :
  same_table (only_in (live postgres_table) sqlite_table) postgres_only = true
  /\ same_table (only_in sqlite_table (live postgres_table)) sqlite_not_postgres = true
  /\ same_edges postgres_table sqlite_table = true.
Proof. vm_compute. repeat split; reflexivity. Qed.

(** every other Postgres row is sound for the model as it stands; so is its dequeue row on messages
    with an empty dead_reason; its queued / dead age rules delete only what the model's rules delete *)
Theorem C02trans_postgres_matches_model :
  Forall row_sound (filter (fun r => negb (has_row r postgres_only)) postgres_table)
  /\ covers false postgres_table = true
  /\ (forall r, In r postgres_table -> t_op r = TDequeue ->
        (forall m, accepts r m = queuedb m) /\
        forall now ttl picked lid m, accepts r m = true -> m_reason m = 0%N -> lease_of picked (m_id m) = Some lid ->
          row_effect (mkWenv now 0 ttl 0 lid 0%N) r m = Some (pm_lease now ttl picked m))
  /\ (forall r, In r postgres_table ->
        match t_op r with
        | TPruneAge k ColRecv _ =>
            k <> KDelivAge -> forall c now m, prune_row_hits c now r m = true -> prune_age_eligible c now m = true
        | _ => True
        end).
Proof.
  split; [|split; [|split]].
  - apply table_sound. vm_compute. reflexivity.
  - vm_compute. reflexivity.
  - (* Its only dequeue row is the first row of [postgres_only].  Queued messages of the model always have
       an empty reason: [mk_msg], and every row that produces [Queued] clears it. *)
    assert (F : filter (fun r => top_eqb (t_op r) TDequeue) postgres_table = firstn 1 postgres_only) by (vm_compute; reflexivity).
    intros r Hin Hop.
    assert (R : In r (firstn 1 postgres_only)) by (rewrite <- F; apply filter_In; rewrite Hop; auto).
    destruct R as [<- | []]. split; [intros m; apply orb_false_r|].
    intros now ttl picked lid m _ R L. unfold pm_lease. rewrite L, R. reflexivity.
  - (* Its age rules are the other rows of [postgres_only]: stricter by one instant than the model's. *)
    assert (F : filter is_prune_age postgres_table = skipn 1 postgres_only) by (vm_compute; reflexivity).
    intros r Hin. destruct (is_prune_age r) eqn:A.
    + assert (R : In r (skipn 1 postgres_only)) by (rewrite <- F; apply filter_In; auto).
      destruct R as [<- | [<- | [<- | []]]]; cbn [t_op]; intros NE.
      * exfalso. apply NE. reflexivity.
      * intros c now m. apply age_rule_within_model. simpl. auto.
      * intros c now m. apply age_rule_within_model. simpl. auto.
    + unfold is_prune_age in A. destruct (t_op r); try exact I. discriminate A.
Qed.

(** the divergence of Postgres' delivered-retention rule, by a concrete message (reported) *)
Theorem C02trans_postgres_delivered_retention_differs :
  let c := mkCfg 0 false 0 1 10 0 0 0 in
  let m := mkMsg 1%N 1%N 1%N Delivered 0 1 100 5%N 0%N 0%N 0%N None 0 in
  existsb (fun r => prune_row_hits c 100 r m) postgres_table = true
  /\ existsb (fun r => prune_row_hits c 100 r m) sqlite_table = false
  /\ existsb (fun r => prune_row_hits c 100 r m) memory_table = false
  /\ prune_age_eligible c 100 m = false.
Proof. vm_compute. repeat split; reflexivity. Qed.

(** every extracted write of the state column, in all three stores, is an edge of the documented
    machine: queued->leased (dequeue); leased->queued (nack, expiry); leased->delivered|removed (ack);
    leased->dead; extend keeps leased; queued|leased|dead->canceled; dead|canceled->queued (requeue);
    canceled->queued (resume); dead->queued|removed (DLQ); prune removes queued|delivered|dead;
    drop_oldest removes queued *)
Theorem C02trans_no_other_transition :
  forall r, In r (memory_table ++ sqlite_table ++ postgres_table) ->
  forall s, st_mem s (t_from r) = true -> documented (opclass_of (t_op r)) s (t_to r) = true.
Proof. apply documented_rows. vm_compute. reflexivity. Qed.

(** ... which lies inside the machine [edge_ok] of the C02 theorems about Model/Queue.v *)
Theorem C02trans_edges_within_model_machine :
  forall r, In r (memory_table ++ sqlite_table ++ postgres_table) ->
  forall s s' x, st_mem s (t_from r) = true -> t_to r = TSt s' ->
    op_in_class x (opclass_of (t_op r)) -> edge_ok x s s'.
Proof.
  intros r Hin s s' x M T C. apply (documented_within_edge_ok (opclass_of (t_op r))); [|exact C].
  rewrite <- T. apply C02trans_no_other_transition; assumption.
Qed.

(** retention and drop_oldest never take a leased (or canceled) message *)
Theorem C02trans_removal_spares_leased :
  forall r, In r (memory_table ++ sqlite_table ++ postgres_table) ->
    match opclass_of (t_op r) with
    | OcPrune | OcEvict => st_mem Leased (t_from r) = false /\ st_mem Canceled (t_from r) = false /\ t_to r = TDeleted
    | _ => True
    end.
Proof.
  assert (H : forallb (fun r => match opclass_of (t_op r) with
                                | OcPrune | OcEvict => negb (st_mem Leased (t_from r)) && negb (st_mem Canceled (t_from r))
                                                       && target_eqb (t_to r) TDeleted
                                | _ => true end) (memory_table ++ sqlite_table ++ postgres_table) = true) by (vm_compute; reflexivity).
  rewrite forallb_forall in H. intros r Hin. specialize (H r Hin).
  destruct (opclass_of (t_op r)); try exact I;
    rewrite !andb_true_iff, !negb_true_iff in H; destruct H as [[H1 H2] H3];
    (destruct (t_to r); try discriminate H3); auto.
Qed.

(** a message is deleted only by ack without delivered-retention, DLQ delete, prune, drop_oldest *)
Theorem C02trans_deletions_are_documented :
  forall r, In r (memory_table ++ sqlite_table ++ postgres_table) -> t_to r = TDeleted ->
    match opclass_of (t_op r) with
    | OcAck => t_cond r = CRetention false
    | OcManage MDeleteDead | OcPrune | OcEvict => True
    | _ => False
    end.
Proof.
  assert (H : forallb (fun r => negb (target_eqb (t_to r) TDeleted) ||
                                match opclass_of (t_op r) with
                                | OcAck => tcond_eqb (t_cond r) (CRetention false)
                                | OcManage MDeleteDead | OcPrune | OcEvict => true
                                | _ => false end) (memory_table ++ sqlite_table ++ postgres_table) = true) by (vm_compute; reflexivity).
  rewrite forallb_forall in H. intros r Hin E. specialize (H r Hin). rewrite E in H. simpl in H.
  destruct (opclass_of (t_op r)) as [| | | | | |k| |]; try discriminate; try exact I.
  - destruct (t_cond r) as [|[]|]; try discriminate. reflexivity.
  - destruct k; try discriminate; exact I.
Qed.

(** "carries a lease iff leased", column-wise: a row producing [Leased] writes a fresh lease id, the
    new deadline and attempt+1; a row producing another state clears lease id and deadline and leaves
    attempt alone; a row keeping the state (extend) touches neither lease id, attempt nor reason *)
Theorem C02trans_lease_columns_follow_state :
  forallb lease_discipline (memory_table ++ sqlite_table ++ postgres_table) = true.
Proof. vm_compute. reflexivity. Qed.

(** whatever a row does, id, route, target, received_at, payload, headers, trace stay (the translator
    refuses any statement that writes another column of a stored message) *)
Theorem C02trans_rows_keep_identity :
  forall e r m m', row_effect e r m = Some (Some m') -> same_imm m m'.
Proof.
  intros e r m m'. unfold row_effect.
  destruct (t_to r) as [s| |]; [| |discriminate];
    (destruct (apply_writes e m (t_writes r) m) as [m1|] eqn:E; [|discriminate]);
    apply apply_writes_imm in E; simpl; intros H; injection H as <-; [|exact E].
  apply (same_imm_trans m m1); [exact E | apply upd_same_imm].
Qed.

Example C02trans_table_sizes :
  (length memory_table, length sqlite_table, length postgres_table) = (32, 32, 32)%nat.
Proof. vm_compute. reflexivity. Qed.

Example C02trans_cancel_row_on_a_leased_message :
  let m := mkMsg 7%N 1%N 1%N Leased 10 2 500 5%N 0%N 0%N 0%N (Some 3%N) 500 in
  map (fun r => row_effect (mkWenv 100 0 0 0 0%N 0%N) r m)
      (filter (fun r => top_eqb (t_op r) (TManage MCancel false)) sqlite_table)
  = [Some (Some (mkMsg 7%N 1%N 1%N Canceled 10 2 100 5%N 0%N 0%N 0%N None 0))]
  /\ manage_effect 100 MCancel m = Some (mkMsg 7%N 1%N 1%N Canceled 10 2 100 5%N 0%N 0%N 0%N None 0).
Proof. vm_compute. split; reflexivity. Qed.

Example C02trans_delivered_is_terminal_but_for_pruning :
  filter (fun r => st_mem Delivered (t_from r)) memory_table
  = [mkTrans (TPruneAge KDelivAge ColNext false) CAlways [Delivered] TDeleted []].
Proof. vm_compute. reflexivity. Qed.

Print Assumptions C02trans_extraction_complete.
Print Assumptions C02trans_memory_matches_model.
Print Assumptions C02trans_sqlite_matches_model.
Print Assumptions C02trans_sqlite_matches_memory.
Print Assumptions C02trans_postgres_matches_sqlite.
Print Assumptions C02trans_postgres_matches_model.
Print Assumptions C02trans_postgres_delivered_retention_differs.
Print Assumptions C02trans_no_other_transition.
Print Assumptions C02trans_edges_within_model_machine.
Print Assumptions C02trans_removal_spares_leased.
Print Assumptions C02trans_deletions_are_documented.
Print Assumptions C02trans_lease_columns_follow_state.
Print Assumptions C02trans_rows_keep_identity.
