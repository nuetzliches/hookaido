(** One attempt record per sent item of a micro-batch, carrying the outcome of the very settlement the item gets. *)
From Coq Require Import ZArith List Bool NArith.
From HK Require Import Model.Queue Model.Dispatcher Model.PushLoop.
Import ListNotations.
Open Scope Z_scope.

(** classifyDelivery's one record for a sent item, against the settlement it chooses for the item *)
Lemma item_record rc it :
  exists r, attempt_records rc (it_attempt it) (it_result it) (it_draw it) = [r]
    /\ ar_attempt r = it_attempt it /\ ar_result r = it_result it
    /\ kind_outcome (settle_kind rc it) = Some (ar_outcome r)
    /\ match ar_reason r with
       | Some why => settle_kind rc it = KDead (reason_code why)
       | None => forall x, settle_kind rc it <> KDead x
       end.
Proof.
  unfold attempt_records, settle_kind. eexists. split; [reflexivity|].
  cbn [ar_attempt ar_result ar_outcome ar_reason].
  destruct (classify (it_result it) (it_attempt it) (rc_max rc)) as [| |why]; cbn; repeat split; discriminate.
Qed.

Lemma sent_items_spec : forall its stop it, In it (sent_items stop its) ->
  In it its /\ exists rc, it_target it = Some rc /\ In (settle_kind rc it, it_lease it) (expected stop its).
Proof.
  induction its as [|x tl IH]; intros stop it H; [contradiction|].
  destruct stop as [|stop']; [contradiction|]. cbn [sent_items expected] in *.
  destruct (it_target x) as [rc|] eqn:T; [destruct H as [<- | H]|].
  - split; [left; reflexivity|]. exists rc. split; [exact T | left; reflexivity].
  - destruct (IH stop' it H) as [Hin [rc' [T' He]]].
    split; [right; exact Hin|]. exists rc'. split; [exact T' | right; exact He].
  - destruct (IH stop' it H) as [Hin [rc' [T' He]]].
    split; [right; exact Hin|]. exists rc'. split; [exact T' | right; exact He].
Qed.

Definition item_records (it : item) : list (N * attempt_rec) :=
  match it_target it with
  | Some rc => map (pair (it_lease it)) (attempt_records rc (it_attempt it) (it_result it) (it_draw it))
  | None => []
  end.

Lemma run_records_sent : forall its stop, run_records stop its = flat_map item_records (sent_items stop its).
Proof.
  induction its as [|it tl IH]; intros stop; [reflexivity|].
  destruct stop as [|stop']; [reflexivity|]. cbn [run_records sent_items].
  destruct (it_target it) as [rc|] eqn:T; [|apply IH].
  cbn [flat_map]. unfold item_records at 1. rewrite T, IH. reflexivity.
Qed.

Lemma sent_items_leases_nodup : forall its stop, NoDup (map it_lease its) -> NoDup (map it_lease (sent_items stop its)).
Proof.
  induction its as [|x tl IH]; intros stop ND; [constructor|].
  destruct stop as [|s]; [constructor|]. cbn [sent_items]. cbn [map] in ND. apply NoDup_cons_iff in ND. destruct ND as [Hn ND].
  destruct (it_target x); [|apply IH; exact ND].
  cbn [map]. constructor; [|apply IH; exact ND].
  intros Hin. apply Hn. apply in_map_iff in Hin. destruct Hin as [y [E Hy]]. rewrite <- E.
  apply in_map. apply (sent_items_spec tl s y Hy).
Qed.
