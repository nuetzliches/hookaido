(** C20 — MCP tools are role-, flag- and principal-gated, confined and audited.
    Theorem statements; each proof is a short derivation from the lemmas of
    Proofs/McpGateProofs.v and Proofs/McpSessionProofs.v, or from the model itself where
    the statement is about one small function (rank, bind_actor, resolve_config_path). *)
From Coq Require Import String List Bool Arith Lia.
From HK Require Import Gen.McpTables Model.McpGate Model.McpSpec Proofs.McpGateProofs Proofs.McpSessionProofs.
Import ListNotations.
Open Scope string_scope.

(** A call passes the gate iff the tool is known, the role suffices, the needed
    feature flag is on and - for mutating tools - a principal is configured.
    Holds for every string [t] (known, unknown, near-miss) and every setting. *)
Theorem C20_gate_spec : forall s t,
  access s t = Allowed <->
  exists r, required t = Some r /\ rank r <= rank (s_role s)
            /\ (needs_mut t = true -> s_mut s = true)
            /\ (needs_rt t = true -> s_rt s = true)
            /\ (mutating t = true -> s_principal s <> "").
Proof. exact gate_spec. Qed.

(** For every documented tool the code's switch tables give the documented role,
    flags and mutating class (spec.md), so "the tool's required role" is the documented one. *)
Theorem C20_roles_as_documented : forall t r m rt mu,
  spec_of t = Some (r, m, rt, mu) ->
  required t = Some r /\ needs_mut t = m /\ needs_rt t = rt /\ mutating t = mu.
Proof.
  intros t r m rt mu H. apply spec_lookup_In in H. apply spec_row_ok_sound.
  exact (proj1 (forallb_forall _ _) spec_rows _ H).
Qed.

Theorem C20_rank_order : rank RRead < rank ROperate /\ rank ROperate < rank RAdmin.
Proof. split; apply le_n. Qed.

(** The tool body runs iff the gate allows; nothing is dispatched otherwise. *)
Theorem C20_call_spec : forall s t,
  (call s t = ODispatched <-> access s t = Allowed) /\ call s t <> ONoHandler.
Proof.
  intros s t. destruct (access s t) eqn:Ea.
  - rewrite (call_allowed _ _ Ea). split; [split; reflexivity | discriminate].
  - rewrite (call_denied _ _ _ Ea). split; [split; discriminate | discriminate].
Qed.

Theorem C20_unknown_refused : forall s t, known t = false -> call s t = ODenied CkUnknown.
Proof.
  intros s t H. apply call_denied. unfold access.
  (* CkUnknown is the first check *)
  rewrite access_order_is. cbn [run_checks check_fails]. rewrite H. reflexivity.
Qed.

(** tools/list advertises exactly the tools tools/call would run, once each. *)
Theorem C20_list_call_agree : forall s t, In t (list_tools s) <-> access s t = Allowed.
Proof. exact list_call_agree. Qed.

Theorem C20_list_nodup : forall s, NoDup (list_tools s).
Proof.
  intros s. unfold list_tools. rewrite (proj2 gate_flags). apply NoDup_filter, descriptors_nodup.
Qed.

(** Every mutating tool is behind a feature flag and needs at least [operate]. *)
Theorem C20_mutating_gated : forall t, mutating t = true ->
  (needs_mut t = true \/ needs_rt t = true) /\
  exists r, required t = Some r /\ rank ROperate <= rank r.
Proof. exact mutating_gated. Qed.

Theorem C20_mutating_needs : forall s t, mutating t = true -> access s t = Allowed ->
  s_role s <> RRead /\ (s_mut s = true \/ s_rt s = true) /\ s_principal s <> "".
Proof.
  intros s t Hm Ha. apply gate_spec in Ha. destruct Ha as [r [Hr [Hrk [Hmu [Hrt Hp]]]]].
  destruct (mutating_gated t Hm) as [Hf [r' [Hr' Hrk']]].
  rewrite Hr in Hr'. injection Hr' as <-.
  repeat split.
  - intros E. rewrite E in Hrk. pose proof (proj1 C20_rank_order). lia.
  - destruct Hf as [Hf|Hf]; auto.
  - auto.
Qed.

(** One audit record per mutating call - denied, failed or successful - none otherwise. *)
Theorem C20_audit_once : forall s t b, mutating t = true ->
  exists a, audit s t b = [a] /\
            (a = ADenied <-> access s t <> Allowed) /\
            (access s t = Allowed -> a = if b then ASuccess else AError).
Proof. exact audit_once. Qed.

Theorem C20_audit_none : forall s t b, mutating t = false -> audit s t b = [].
Proof. exact audit_none. Qed.

Theorem C20_role_monotone : forall s s' t,
  rank (s_role s) <= rank (s_role s') -> s_mut s' = s_mut s -> s_rt s' = s_rt s ->
  s_principal s' = s_principal s -> access s t = Allowed -> access s' t = Allowed.
Proof. exact role_monotone. Qed.

(** A supplied actor must equal the principal; config tools touch only the configured path. *)
Theorem C20_actor_bound : forall a p x, bind_actor a p = Some x -> p <> "" -> x = p.
Proof.
  intros a p x H Hp. apply String.eqb_neq in Hp. unfold bind_actor in H.
  destruct (String.eqb a "") eqn:Ea; cbv zeta iota in H; rewrite Hp in H.
  - (* no actor supplied: the principal stands in for it *)
    rewrite String.eqb_refl, andb_false_r in H. injection H as <-. reflexivity.
  - rewrite Ea in H. cbn [negb andb] in H.
    destruct (String.eqb_spec a p) as [->|]; [injection H as <-; reflexivity | discriminate H].
Qed.

Theorem C20_actor_mismatch : forall a p, a <> "" -> p <> "" -> a <> p -> bind_actor a p = None.
Proof.
  intros a p Ha Hp Hap. unfold bind_actor.
  apply String.eqb_neq in Ha, Hp, Hap. rewrite Ha, Ha, Hp, Hap. reflexivity.
Qed.

Theorem C20_path_confined : forall cfg arg p,
  resolve_config_path cfg arg = Some p -> p = cfg /\ cfg <> "".
Proof. exact path_confined. Qed.

Theorem C20_foreign_path_refused : forall cfg a,
  a <> "" -> a <> cfg -> resolve_config_path cfg (Some a) = None.
Proof.
  intros cfg a Ha Hac. unfold resolve_config_path.
  apply String.eqb_neq in Ha, Hac. rewrite Ha, Hac. destruct (String.eqb cfg ""); reflexivity.
Qed.

(** Whole sessions.  For every server setting and every sequence of tools/call requests (any tools,
    known or not, any outcome of each tool body): the audit log is exactly one record per call of a
    mutating tool, in call order - [denied] for a refused call, [success]/[error] for a dispatched one -
    and nothing else; a refused mutating call is recorded at the position of the call; a session of
    read-only and unknown tools leaves no record. *)
Theorem C20_session_audit_exact : forall s calls,
  session_audit s calls = map (record_of s) (filter is_mutating calls).
Proof. exact session_audit_exact. Qed.

Theorem C20_session_audit_count : forall s calls,
  length (session_audit s calls) = length (filter is_mutating calls).
Proof. intros s calls. rewrite session_audit_exact. apply map_length. Qed.

Theorem C20_session_denied_recorded_in_place : forall s pre t b post,
  mutating t = true -> access s t <> Allowed ->
  session_audit s (pre ++ (t, b) :: post)%list =
  (session_audit s pre ++ ADenied :: session_audit s post)%list.
Proof.
  intros s pre t b post Hm Hd. rewrite session_audit_app, session_audit_cons. cbn [fst snd].
  rewrite (audit_is_record s t b Hm). unfold record_of. cbn [fst].
  destruct (access s t); [congruence | reflexivity].
Qed.

Theorem C20_session_readonly_silent : forall s calls,
  Forall (fun c => mutating (fst c) = false) calls -> session_audit s calls = [].
Proof.
  intros s calls. induction 1 as [|c tl Hc _ IH]; [reflexivity|].
  rewrite session_audit_cons, (audit_none _ _ _ Hc). exact IH.
Qed.

Print Assumptions C20_gate_spec.
Print Assumptions C20_roles_as_documented.
Print Assumptions C20_call_spec.
Print Assumptions C20_list_call_agree.
Print Assumptions C20_mutating_gated.
Print Assumptions C20_mutating_needs.
Print Assumptions C20_audit_once.
Print Assumptions C20_role_monotone.
Print Assumptions C20_actor_bound.
Print Assumptions C20_path_confined.
Print Assumptions C20_session_audit_exact.
Print Assumptions C20_session_audit_count.
Print Assumptions C20_session_denied_recorded_in_place.
Print Assumptions C20_session_readonly_silent.
