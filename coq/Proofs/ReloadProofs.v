(** Lemmas about Model/Reload.v: the frame property of a failed reload, and atomic
    visibility over all schedules (refuted for the code as it is, proved for the repair target). *)
From Coq Require Import List Bool Arith Lia.
From HK Require Import Model.Reload Proofs.ListFacts.
Import ListNotations.

Section ReloadFacts.
  Variables bytes ast compiled authset : Type.
  Variable read_file : option bytes.
  Variable parse : bytes -> option ast.
  Variable compile : ast -> option compiled.
  Variable requires_restart : compiled -> compiled -> bool.
  Variable load_secrets : compiled -> option authset.
  Variable inherit : authset -> authset -> authset.

  Let reload' := reload bytes ast compiled authset read_file parse compile requires_restart load_secrets inherit.

  (** The six exits of reloadConfig in the order the code tests them, each with what the oracles
      answered on the way and with the triple it returns.  In particular a change that needs a restart
      is refused before any secret is loaded, and a missing secret is found before any write. *)
  Inductive reload_exit (running : compiled) (r : runtime compiled authset)
    : runtime compiled authset * compiled * outcome -> Prop :=
  | ExitRead :
      read_file = None -> reload_exit running r (r, running, ReadFailed)
  | ExitParse d :
      read_file = Some d -> parse d = None -> reload_exit running r (r, running, ParseFailed)
  | ExitCompile d cfg :
      read_file = Some d -> parse d = Some cfg -> compile cfg = None ->
      reload_exit running r (r, running, CompileFailed)
  | ExitRestart d cfg c :
      read_file = Some d -> parse d = Some cfg -> compile cfg = Some c ->
      requires_restart c running = true -> reload_exit running r (r, running, RestartRequired)
  | ExitAuth d cfg c :
      read_file = Some d -> parse d = Some cfg -> compile cfg = Some c ->
      requires_restart c running = false -> load_secrets c = None ->
      reload_exit running r (r, running, AuthFailed)
  | ExitReloaded d cfg c a :
      read_file = Some d -> parse d = Some cfg -> compile cfg = Some c ->
      requires_restart c running = false -> load_secrets c = Some a ->
      reload_exit running r (write_reload compiled authset inherit a c r, c, Reloaded).

  Lemma reload_exits running r :
    reload_exit running r
      (reload bytes ast compiled authset read_file parse compile requires_restart load_secrets inherit running r).
  Proof.
    unfold reload.
    destruct read_file as [d|] eqn:Ed; [|apply ExitRead; assumption].
    destruct (parse d) as [cfg|] eqn:Ep; [|eapply ExitParse; eassumption].
    destruct (compile cfg) as [c|] eqn:Ec; [|eapply ExitCompile; eassumption].
    destruct (requires_restart c running) eqn:Er; [eapply ExitRestart; eassumption|].
    destruct (load_secrets c) as [a|] eqn:Ea; [eapply ExitReloaded|eapply ExitAuth]; eassumption.
  Qed.

  Lemma failed_reload_frame : forall running r r' ret o,
    reload' running r = (r', ret, o) -> o <> Reloaded -> r' = r /\ ret = running.
  Proof.
    intros running r r' ret o H Ho. unfold reload' in H. revert H.
    destruct (reload_exits running r); intros [= <- <- <-]; [split; reflexivity ..|].
    contradiction Ho. reflexivity.
  Qed.
End ReloadFacts.

(** ** The step-list reading: in any program whose fallible steps all precede its writes, a
    failure exit is taken with no write performed - for every failure point. *)
Lemma exec_only_writes : forall fails prog,
  forallb (fun s => match s with SWrite _ => true | SFallible _ => false end) prog = true ->
  snd (exec fails prog) = None.
Proof.
  induction prog as [|[p|w] tl IH]; simpl; intros H; auto; [discriminate|].
  specialize (IH H). destruct (exec fails tl) as [ws e]. simpl in *. exact IH.
Qed.

Lemma frame_general : forall fails prog,
  fallible_first prog = true -> snd (exec fails prog) <> None -> fst (exec fails prog) = [].
Proof.
  induction prog as [|[p|w] tl IH]; simpl; intros Hf He.
  - reflexivity.
  - destruct (fails p); simpl; auto.
  - exfalso. pose proof (exec_only_writes fails tl Hf) as Hn.
    destruct (exec fails tl) as [ws e]. simpl in *. auto.
Qed.

(** the design before 337ce64 performed two sections *)
Lemma two_write_prog_success : exec (fun _ => false) two_write_prog = ([[WAuth]; [WTables]], None).
Proof. reflexivity. Qed.

Lemma field_eqb_eq a b : field_eqb a b = true <-> a = b.
Proof.
  split; [|intros <-; destruct a; reflexivity].
  destruct a, b; simpl; intros H; (reflexivity || discriminate H).
Qed.

Lemma get_set f g v r : get f (set g v r) = if field_eqb f g then v else get f r.
Proof. destruct f, g; reflexivity. Qed.

Lemma existsb_field_In f fs : existsb (field_eqb f) fs = true <-> In f fs.
Proof.
  rewrite existsb_exists. split.
  - intros [x [Hx He]]. apply field_eqb_eq in He. subst. exact Hx.
  - intros H. exists f. split; [exact H | apply field_eqb_eq; reflexivity].
Qed.

Lemma get_set_fields f fs v : forall r,
  get f (set_fields fs v r) = if existsb (field_eqb f) fs then v else get f r.
Proof.
  unfold set_fields. induction fs as [|a fs IH]; intros r; simpl; [reflexivity|].
  rewrite IH. rewrite get_set.
  destruct (field_eqb f a); simpl; destruct (existsb (field_eqb f) fs); reflexivity.
Qed.

Lemma get_set_fields_in f fs v r : In f fs -> get f (set_fields fs v r) = v.
Proof.
  intros H. rewrite get_set_fields. apply existsb_field_In in H. rewrite H. reflexivity.
Qed.

Lemma get_set_fields_notin f fs v r : ~ In f fs -> get f (set_fields fs v r) = get f r.
Proof.
  intros H. rewrite get_set_fields. destruct (existsb (field_eqb f) fs) eqn:E; [|reflexivity].
  apply existsb_field_In in E. contradiction.
Qed.

Lemma get_uniform f v : get f (uniform v) = v.
Proof. destruct f; reflexivity. Qed.

Lemma all_fields_complete f : In f all_fields.
Proof. apply existsb_field_In. destruct f; reflexivity. Qed.

Lemma code_fields_complete f : In f (auth_fields ++ table_fields).
Proof. apply existsb_field_In. destruct f; reflexivity. Qed.

Lemma uniform_ext r v : (forall f, get f r = v) -> r = uniform v.
Proof.
  intros H.
  assert (E : map (fun f => get f r) all_fields = map (fun _ => v) all_fields) by (apply map_ext; exact H).
  destruct r. inversion E. reflexivity.
Qed.

Lemma one_version_spec (o : obs) :
  one_version o = true <-> exists v, forall x, In x o -> snd x = v.
Proof.
  destruct o as [|[[c f] v0] tl]; simpl.
  - split; [exists 0; intros x []|reflexivity].
  - rewrite forallb_forall. split.
    + intros H. exists v0. intros x [<-|Hx]; [reflexivity|]. apply Nat.eqb_eq, H, Hx.
    + intros [v H] x Hx. apply Nat.eqb_eq.
      rewrite (H x (or_intror Hx)). symmetry. apply (H (c, f, v0)). left. reflexivity.
Qed.

Lemma writes_from_in_shape shape : forall n k,
  Forall (fun wv : list field * nat => In (fst wv) shape) (writes_from shape k n).
Proof.
  induction n as [|n IH]; intros k; simpl; [constructor|].
  apply Forall_app. split; [|apply IH].
  apply Forall_forall. intros x Hx. apply in_map_iff in Hx. destruct Hx as [w [Hw Hin]]. subst. exact Hin.
Qed.

Lemma writes_from_bound shape : forall m k,
  Forall (fun wv : list field * nat => k <= snd wv < k + m) (writes_from shape k m).
Proof.
  induction m as [|m IH]; intros k; simpl; [constructor|].
  apply Forall_app. split.
  - apply Forall_forall. intros x Hx. apply in_map_iff in Hx. destruct Hx as [w [Hw _]]. subst. simpl. lia.
  - eapply Forall_impl; [|apply (IH (S k))]. intros a Ha. simpl in Ha. lia.
Qed.

(** ** The reload side: sections that are pairwise equal or disjoint.
    Then every section holds, in every reachable state, ONE version (at most the number of reloads):
    a critical section overwrites its own fields together and leaves the other sections alone. *)
Definition sections_ok (shape : reload_shape) : Prop :=
  forall w1 w2, In w1 shape -> In w2 shape -> w1 = w2 \/ (forall f, In f w1 -> ~ In f w2).

Definition sec_uniform (shape : reload_shape) (n : nat) (r : vrt) : Prop :=
  forall w, In w shape -> exists v, v <= n /\ forall f, In f w -> get f r = v.

Definition winv (shape : reload_shape) (n : nat) (s : sstate) : Prop :=
  sec_uniform shape n (s_rt s)
  /\ Forall (fun wv => In (fst wv) shape /\ snd wv <= n) (s_writes s).

Lemma sections_ok_single w : sections_ok [w].
Proof. intros w1 w2 [<-|[]] [<-|[]]. left. reflexivity. Qed.

Lemma winv_init shape n reqs : winv shape n (sinit shape n reqs).
Proof.
  split; simpl.
  - intros w _. exists 0. split; [lia|]. intros f _. apply get_uniform.
  - apply Forall_and; [apply writes_from_in_shape|].
    eapply Forall_impl; [|apply (writes_from_bound shape n 1)]. simpl. lia.
Qed.

Lemma winv_step shape n : sections_ok shape -> forall s a, winv shape n s -> winv shape n (sstep s a).
Proof.
  intros Hs [r ws qs] [|i] [Hu Hw]; simpl in *; [|split; assumption].
  destruct ws as [|[fs v] tl]; [split; assumption|].
  inversion Hw as [|x l [Hfs Hv] Htl]; subst. simpl in Hfs, Hv. split; [|exact Htl].
  intros w Hin. simpl. destruct (Hs fs w Hfs Hin) as [<-|Hdis].
  - exists v. split; [exact Hv|]. intros f Hf. apply get_set_fields_in, Hf.
  - destruct (Hu w Hin) as [v0 [Hv0 Hg]]. exists v0. split; [exact Hv0|]. intros f Hf.
    rewrite get_set_fields_notin; [apply Hg, Hf|]. intros Hc. exact (Hdis f Hc Hf).
Qed.

Lemma run_winv shape n reqs sched : sections_ok shape -> winv shape n (run_schedule shape n reqs sched).
Proof. intros Hs. unfold run_schedule. apply fold_left_inv; [apply winv_step, Hs|apply winv_init]. Qed.

(** ** The request side: a request that is one callback reading inside one section.
    It is waiting with nothing read, or done with one version read. *)
Definition within_section (shape : reload_shape) (c : callback) : Prop :=
  exists w, In w shape /\ forall f, In f (fields_of c) -> In f w.

Definition single_section_requests (shape : reload_shape) (reqs : list request) : Prop :=
  forall r, In r reqs -> length r <= 1 /\ forall c, In c r -> within_section shape c.

Inductive req_inv (shape : reload_shape) : inflight -> Prop :=
| ReqWaiting c : within_section shape c -> req_inv shape ([c], [])
| ReqDone o : one_version o = true -> req_inv shape ([], o).

Lemma req_inv_init shape r :
  length r <= 1 -> (forall c, In c r -> within_section shape c) -> req_inv shape (r, []).
Proof.
  destruct r as [|c [|c' r]]; simpl; intros Hl Hc.
  - apply ReqDone. reflexivity.
  - apply ReqWaiting, Hc. left. reflexivity.
  - lia.
Qed.

Lemma read_step_one_version shape n c r :
  sec_uniform shape n r -> within_section shape c -> one_version (read_step c r) = true.
Proof.
  intros Hu [w [Hw Hf]]. destruct (Hu w Hw) as [v [_ Hv]].
  apply one_version_spec. exists v. intros x Hx. unfold read_step in Hx.
  apply in_map_iff in Hx. destruct Hx as [f [<- Hin]]. simpl. apply Hv, Hf, Hin.
Qed.

Lemma step_req_inv shape n r : sec_uniform shape n r -> forall qs i,
  Forall (req_inv shape) qs -> Forall (req_inv shape) (step_req i r qs).
Proof.
  intros Hu. induction qs as [|[rem o] tl IH]; intros i Hq; simpl; [constructor|].
  inversion Hq as [|x l Hx Hl]; subst.
  destruct i as [|i']; [|constructor; [exact Hx|apply IH, Hl]].
  inversion Hx as [c Hc|o' Ho]; subst; constructor; try assumption.
  apply ReqDone, (read_step_one_version shape n); assumption.
Qed.

Theorem single_section_atomic : forall shape reqs,
  sections_ok shape -> single_section_requests shape reqs -> no_mixture shape reqs.
Proof.
  intros shape reqs Hs Hr n sched.
  assert (H : (fun s => winv shape n s /\ Forall (req_inv shape) (s_reqs s))
                (run_schedule shape n reqs sched)).
  { unfold run_schedule. apply fold_left_inv.
    - intros s a [Hw Hq]. split; [apply winv_step; assumption|].
      destruct a as [|i]; simpl; [destruct (s_writes s) as [|[fs v] tl]; exact Hq|].
      apply (step_req_inv shape n); [apply Hw|exact Hq].
    - split; [apply winv_init|]. simpl. apply Forall_map, Forall_forall. intros r Hin.
      apply req_inv_init; apply (Hr r Hin). }
  destruct H as [_ Hq]. unfold P_no_mixture, observations.
  apply forallb_forall. intros o Ho. apply in_map_iff in Ho. destruct Ho as [q [<- Hin]].
  rewrite Forall_forall in Hq. destruct (Hq q Hin) as [c _|o Ho]; [reflexivity|exact Ho].
Qed.

(** The repair target: ONE write covering every field any handler reads, and ONE read per request. *)
Definition covered (w : list field) (reqs : list request) : Prop :=
  forall r c f, In r reqs -> In c r -> In f (fields_of c) -> In f w.

Theorem snapshot_design_atomic : forall w reqs,
  covered w reqs -> (forall r, In r reqs -> length r <= 1) -> no_mixture [w] reqs.
Proof.
  intros w reqs Hc Hl. apply single_section_atomic; [apply sections_ok_single|].
  intros r Hr. split; [apply Hl, Hr|].
  intros c Hin. exists w. split; [left; reflexivity|]. intros f. apply (Hc r c f Hr Hin).
Qed.

(** ** Refutations: one schedule under which some request reads two versions. *)
Lemma mixture_witness shape reqs n sched :
  P_no_mixture (observations shape n reqs sched) = false -> ~ no_mixture shape reqs.
Proof. intros E H. rewrite H in E. discriminate. Qed.

(** The code as it is: several independent locked reads per request; here the reload runs
    between the first and the second callback of an ingress request. *)
Lemma per_request_reads_refuted : ~ no_mixture code_shape [ingress_request].
Proof. apply (mixture_witness _ _ 1 ([AReq 0] ++ [AReload] ++ repeat (AReq 0) 7)). reflexivity. Qed.

(** Non-vacuity of the positive theorems: schedules with real interleaving, one version each. *)
Example snapshot_example :
  map versions_seen
      (observations single_write_shape 2 [[CSnapshot]; [CSnapshot]; [CSnapshot]]
                    [AReq 0; AReload; AReq 1; AReload; AReq 2])
  = [repeat 0 14; repeat 1 14; repeat 2 14].
Proof. vm_compute. reflexivity. Qed.

Example single_read_example :
  map versions_seen
      (observations code_shape 2 [[CAuthorizePull]; [CHmacAuth]; [CAuthorizeWorker]]
                    [AReq 0; AReload; AReq 1; AReload; AReq 2])
  = [[0; 0; 0]; [1]; [2; 2; 2]].
Proof. vm_compute. reflexivity. Qed.
