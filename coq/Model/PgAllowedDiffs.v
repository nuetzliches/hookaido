(** The reviewed table of the tie between internal/queue/sqlite.go and postgres.go:
    which function of one file answers which function of the other, which helper calls are
    the same thing under two names, which SQLite helpers are read in place (inlined), and
    - the short list - every place where the two skeletons are allowed to differ after
    normalisation (Model/SqlNorm.v).  Everything not listed here must match token for token. *)
From Coq Require Import String List Bool.
From HK Require Import Model.SqlNorm.
Import ListNotations.
Local Open Scope string_scope.

(* ------------------------------------------------------------------------- *)
(** helper calls *)

(** SQLite opens / ends its transactions through three helpers (their bodies are pinned by
    [C13pg_sqlite_tx_helpers_pinned] in Properties/C13pg.v); Postgres uses database/sql directly. *)
Definition sqlite_calls : callmap :=
  [("beginImmediateWithRetry", TBegin); ("commitTx", TCommit); ("rollbackTx", TRollback)].

(** same helper, other name *)
Definition pg_calls : callmap :=
  [("requeueExpiredLeasesTx", TDo "requeueExpiredLeases");
   ("requeueLeaseTx", TDo "requeueLease");
   ("withLease", TDo "withLeaseMutation");
   ("activeCount", TDo "activeDepthCountTx");
   ("mapPostgresInsertError", TDo "mapQueueInsertError")].

Definition norm_sqlite := norm sqlite_calls Sqlite.
Definition norm_pg := norm pg_calls Pg.

(** SQLite helpers without a Postgres counterpart: read in place where they are called *)
Definition sqlite_inlined : list string :=
  ["enqueueWithLimit"; "dequeueCandidateSingleTx"; "dequeueCandidateIDsTx"; "dequeueLeaseSingleTx";
   "dequeueLeaseByIDsTx"; "resolveLeaseMutationConflictTx"; "resolveSingleLeaseConflictTx"].

(* ------------------------------------------------------------------------- *)
(** which function answers which: (name of the tie, SQLite function, Postgres function) *)

Definition tied : list (string * string * string) :=
  [ (* queue.Store *)
    ("Enqueue", "Enqueue", "Enqueue"); ("Dequeue", "Dequeue", "Dequeue"); ("Ack", "Ack", "Ack");
    ("Nack", "Nack", "Nack"); ("Extend", "Extend", "Extend"); ("MarkDead", "MarkDead", "MarkDead");
    ("ListDead", "ListDead", "ListDead"); ("RequeueDead", "RequeueDead", "RequeueDead");
    ("DeleteDead", "DeleteDead", "DeleteDead"); ("ListMessages", "ListMessages", "ListMessages");
    ("LookupMessages", "LookupMessages", "LookupMessages");
    ("CancelMessages", "CancelMessages", "CancelMessages");
    ("RequeueMessages", "RequeueMessages", "RequeueMessages");
    ("ResumeMessages", "ResumeMessages", "ResumeMessages");
    ("CancelMessagesByFilter", "CancelMessagesByFilter", "CancelMessagesByFilter");
    ("RequeueMessagesByFilter", "RequeueMessagesByFilter", "RequeueMessagesByFilter");
    ("ResumeMessagesByFilter", "ResumeMessagesByFilter", "ResumeMessagesByFilter");
    ("Stats", "Stats", "Stats"); ("RecordAttempt", "RecordAttempt", "RecordAttempt");
    ("ListAttempts", "ListAttempts", "ListAttempts");
    (* queue.LeaseBatchStore, queue.BacklogTrendStore *)
    ("AckBatch", "AckBatch", "AckBatch"); ("NackBatch", "NackBatch", "NackBatch");
    ("MarkDeadBatch", "MarkDeadBatch", "MarkDeadBatch");
    ("CaptureBacklogTrendSample", "CaptureBacklogTrendSample", "CaptureBacklogTrendSample");
    ("ListBacklogTrend", "ListBacklogTrend", "ListBacklogTrend");
    (* helpers *)
    ("dequeueOnce", "dequeueOnce", "dequeueOnce");
    ("withLease", "withLeaseMutation", "withLease");
    ("requeueExpiredLeases", "requeueExpiredLeases", "requeueExpiredLeasesTx");
    ("requeueLease", "requeueLease", "requeueLeaseTx");
    ("maybePrune", "maybePrune", "maybePrune");
    ("selectMessageIDsByFilter", "selectMessageIDsByFilter", "selectMessageIDsByFilter");
    ("dropOldestQueued", "dropOldestQueued", "dropOldestQueued");
    ("activeCount", "activeDepthCountTx", "activeCount");
    ("mapInsertError", "mapQueueInsertError", "mapPostgresInsertError");
    (* construction and options *)
    ("NewStore", "NewSQLiteStore", "NewPostgresStore");
    ("WithNowFunc", "WithSQLiteNowFunc", "WithPostgresNowFunc");
    ("WithPollInterval", "WithSQLitePollInterval", "WithPostgresPollInterval");
    ("WithQueueLimits", "WithSQLiteQueueLimits", "WithPostgresQueueLimits");
    ("WithRetention", "WithSQLiteRetention", "WithPostgresRetention");
    ("WithDeliveredRetention", "WithSQLiteDeliveredRetention", "WithPostgresDeliveredRetention");
    ("WithDLQRetention", "WithSQLiteDLQRetention", "WithPostgresDLQRetention") ].

(** functions with database statements or sentinel errors that are deliberately outside the tie *)
Definition sqlite_only : list (string * string) :=
  [("EnqueueBatch", "queue.BatchEnqueuer is implemented by the memory and SQLite stores only (known finding C15 publish-nonbatch-store-partial)");
   ("WithSQLiteCheckpointInterval", "WAL checkpointing is an engine matter");
   ("init", "PRAGMAs and migrations: engine set-up, not a Store operation");
   ("migrate", "engine set-up"); ("readSchemaVersion", "engine set-up"); ("writeSchemaVersion", "engine set-up");
   ("checkpointPassive", "WAL checkpoint"); ("startCheckpointLoop", "WAL checkpoint");
   ("beginImmediateWithRetry", "transaction helper, pinned by sqlite_tx_helpers_pinned");
   ("commitTx", "transaction helper, pinned by sqlite_tx_helpers_pinned");
   ("rollbackTx", "transaction helper, pinned by sqlite_tx_helpers_pinned");
   ("withLease", "dead code in sqlite.go (no caller)");
   ("withLeaseBatch", "single-transaction batch machinery; Postgres loops over the single operations (see AckBatch)");
   ("lookupLeasesTx", "part of withLeaseBatch"); ("requeueLeaseIDsTx", "part of withLeaseBatch");
   ("activeDepthCount", "the unlocked fast path of enqueueWithLimit (read in place in Enqueue)");
   ("enqueueWithLimit", "read in place in Enqueue"); ("dequeueCandidateSingleTx", "read in place in dequeueOnce");
   ("dequeueCandidateIDsTx", "read in place in dequeueOnce"); ("dequeueLeaseSingleTx", "read in place in dequeueOnce");
   ("dequeueLeaseByIDsTx", "read in place in dequeueOnce");
   ("resolveLeaseMutationConflictTx", "read in place in withLeaseMutation");
   ("resolveSingleLeaseConflictTx", "read in place in withLeaseMutation")].

Definition pg_only : list (string * string) :=
  [("init", "schema creation: engine set-up (column sets are compared by C13pg_schema_columns)");
   ("runStoreOperation", "metrics wrapper: calls its closure and nothing else (pinned by pg_wrappers_pinned); read through at the call sites");
   ("runPostgresStoreOperationResult", "metrics wrapper: calls its closure and nothing else (pinned by pg_wrappers_pinned)")].

(* ------------------------------------------------------------------------- *)
(** the listed differences *)

Inductive diff_kind :=
| Structural   (* same contract, different means (locking, statement shape, helper structure) *)
| Divergent.   (* an observable difference between the two stores: reported, pinned until resolved *)

Record diff := mkDiff {
  d_id : string;
  d_in : list string;           (* names of the ties it applies to (each at least once) *)
  d_sqlite : list string;       (* normalised SQLite fragment ... *)
  d_pg : list string;           (* ... is replaced by this normalised Postgres fragment *)
  d_kind : diff_kind;
  d_why : string }.

Definition allowed_diffs : list diff := Eval vm_compute in [
  mkDiff "closed-store-guard" ["Enqueue"; "Dequeue"; "ListMessages"; "CaptureBacklogTrendSample"; "ListBacklogTrend"]
    (words "#start")
    (words "#start #if go{s == nil || s.db == nil} #ret:new{postgres store is closed} #end")
    Structural
    (("only the Postgres store guards some entry points against a nil / closed store; a closed store is outside "
           ++ "the Store contract"));
  mkDiff "enqueue-normalisation" ["Enqueue"]
    (words ("#if go{env.State == """"} #assign go{env.State = StateQueued} #end #if go{env.State != StateDead} #assign "
           ++ "go{env.DeadReason = """"} #end #if go{env.ReceivedAt.IsZero()} #assign go{env.ReceivedAt = now} #end #if "
           ++ "go{env.NextRunAt.IsZero()} #assign go{env.NextRunAt = env.ReceivedAt} #end #if go{env.SchemaVersion == 0} "
           ++ "#assign go{env.SchemaVersion = 1} #end #if go{env.Payload == nil} #assign go{env.Payload = []byte{}} #end "
           ++ "#if go{strings.TrimSpace(env.DeadReason) != """"} #assign go{deadReason = env.DeadReason} #end"))
    (words ("#if go{env.Route == """"} #ret:new{route is required} #end #if go{env.Target == """"} #ret:new{target is "
           ++ "required} #end #if go{env.ReceivedAt.IsZero()} #assign go{env.ReceivedAt = now} #end #if "
           ++ "go{env.NextRunAt.IsZero()} #assign go{env.NextRunAt = now} #end #if go{env.State == """"} #assign "
           ++ "go{env.State = StateQueued} #end #if go{env.Attempt < 0} #assign go{env.Attempt = 0} #end #if "
           ++ "go{env.SchemaVersion == 0} #assign go{env.SchemaVersion = 1} #end"))
    Divergent
    (("OBSERVABLE: (1) Postgres refuses an envelope with empty Route or Target, SQLite and memory store it; (2) "
           ++ "an envelope with ReceivedAt set and NextRunAt zero becomes due at ReceivedAt in SQLite/memory but at "
           ++ "`now` in Postgres; (3) SQLite/memory clear DeadReason of a non-dead envelope, Postgres keeps the trimmed "
           ++ "text until the first dequeue; (4) Postgres clamps a negative Attempt to 0; (5) only SQLite turns a nil "
           ++ "payload into an empty one (payload is NOT NULL in both schemas)"));
  mkDiff "enqueue-depth-limit" ["Enqueue"]
    (words ("#if go{s.maxDepth > 0} #if go{s.dropPolicy != ""drop_oldest"" && s.queueLikelyFull.Load()} "
           ++ "#do:activeDepthCount #if go{err == nil && count >= s.maxDepth} #ret:ErrQueueFull #end #end #begin "
           ++ "#defer-rollback #do:activeDepthCountTx #for go{count >= s.maxDepth} #if go{s.dropPolicy != ""drop_oldest""} "
           ++ "#ret:ErrQueueFull #end #do:dropOldestQueued #if go{!dropped} #ret:ErrQueueFull #end #end #if "
           ++ "go{strings.TrimSpace(env.DeadReason) != """"} #assign go{deadReason = env.DeadReason} #end #stmt:exec "
           ++ "INSERT INTO queue_items ( id , route , target , state , received_at , attempt , next_run_at , payload , "
           ++ "headers_json , trace_json , schema_version , dead_reason , lease_id , lease_until ) VALUES ( @{env.ID} , "
           ++ "@{env.Route} , @{env.Target} , @{string(env.State)} , @{env.ReceivedAt} , @{env.Attempt} , "
           ++ "@{env.NextRunAt} , @{env.Payload} , @{headersJSON} , @{traceJSON} , @{env.SchemaVersion} , @{deadReason} "
           ++ ", NULL , NULL ) #endstmt #if go{err != nil} #do:mapQueueInsertError #end #commit #end"))
    (words ("#if go{s.maxDepth > 0} #do:activeDepthCountTx #if go{active >= s.maxDepth} #switch go{s.dropPolicy} #case "
           ++ "go{""drop_oldest""} #do:dropOldestQueued #if go{!dropped} #ret:ErrQueueFull #end #case go{default} "
           ++ "#ret:ErrQueueFull #end #end #end"))
    Divergent
    (("OBSERVABLE: SQLite counts, evicts and inserts inside one BEGIN IMMEDIATE transaction and evicts until the "
           ++ "new item fits (fix 1370a7d); Postgres counts, evicts at most ONE oldest queued item and inserts as three "
           ++ "separate autocommit statements: with the active count above max_depth (after an operator requeue) "
           ++ "drop_oldest leaves the queue above the limit, and two concurrent enqueues can both pass the count"));
  mkDiff "enqueue-insert-shape" ["Enqueue"]
    (words ("#stmt:exec INSERT INTO queue_items ( id , route , target , state , received_at , attempt , next_run_at , "
           ++ "payload , headers_json , trace_json , schema_version , dead_reason , lease_id , lease_until ) VALUES ( "
           ++ "@{env.ID} , @{env.Route} , @{env.Target} , @{string(env.State)} , @{env.ReceivedAt} , @{env.Attempt} , "
           ++ "@{env.NextRunAt} , @{env.Payload} , @{headersJSON} , @{traceJSON} , @{env.SchemaVersion} , @{deadReason} "
           ++ ", NULL , NULL ) #endstmt"))
    (words ("#stmt:exec INSERT INTO queue_items ( id , route , target , state , received_at , attempt , next_run_at , "
           ++ "payload , headers_json , trace_json , dead_reason , schema_version , lease_id , lease_until ) VALUES ( "
           ++ "@{env.ID} , @{env.Route} , @{env.Target} , @{string(env.State)} , @{env.ReceivedAt} , @{env.Attempt} , "
           ++ "@{env.NextRunAt} , @{env.Payload} , @{headersJSON} , @{traceJSON} , @{strings.TrimSpace(env.DeadReason)} "
           ++ ", @{env.SchemaVersion} , @{nullIfEmpty(strings.TrimSpace(env.LeaseID))} , @{nullTime(env.LeaseUntil)} ) "
           ++ "#endstmt"))
    Divergent
    (("column order differs (harmless); OBSERVABLE: Postgres stores the LeaseID / LeaseUntil an envelope arrives "
           ++ "with, SQLite always stores NULL; Postgres stores the trimmed dead reason (empty string, not NULL)"));
  mkDiff "lease-row-locator" ["Ack"; "Nack"; "MarkDead"]
    (words "WHERE lease_id = @{leaseID} AND state = 'leased' AND ( lease_until IS NULL OR lease_until > @{now} ) #endstmt")
    (words "WHERE id = @{itemID} AND state = 'leased' #endstmt")
    Structural
    (("SQLite tests lease id, state and expiry in the guard of the mutating statement and classifies a miss "
           ++ "afterwards; Postgres has already locked the row by lease id (FOR UPDATE) and tested state and expiry in "
           ++ "withLease, and mutates by primary key (see with-lease)"));
  mkDiff "extend-statement" ["Extend"]
    (words ("SET lease_until = lease_until + @{extendNanos} , next_run_at = lease_until + @{extendNanos} WHERE "
           ++ "lease_id = @{leaseID} AND state = 'leased' AND lease_until IS NOT NULL AND lease_until > @{now} #endstmt"))
    (words "SET lease_until = @{updated} , next_run_at = @{updated} WHERE id = @{itemID} AND state = 'leased' #endstmt")
    Structural
    ("same as lease-row-locator; Postgres adds extendBy in Go to the lease_until it read under the row lock");
  mkDiff "nack-schedule" ["Nack"]
    (words "next_run_at = @{saturatingUnixNanoAfter(now, delay)}")
    (words "next_run_at = @{now.Add(delay)}")
    Structural
    ("int64 nanoseconds need the saturating add (fix 7eb7ae8); time.Time.Add does not wrap for any time.Duration");
  mkDiff "mark-dead-reason-1" ["MarkDead"]
    (words "#start #if go{strings.TrimSpace(reason) != """"} #assign go{deadReason = reason} #end")
    (words "#start")
    Divergent
    ("see mark-dead-reason-2");
  mkDiff "mark-dead-reason-2" ["MarkDead"]
    (words "dead_reason = @{deadReason}")
    (words "dead_reason = @{strings.TrimSpace(reason)}")
    Divergent
    (("OBSERVABLE: SQLite (and memory) store the dead reason as given (NULL when blank), Postgres stores it "
           ++ "trimmed: MarkDead(l, "" x "") lists as "" x "" from SQLite and as ""x"" from Postgres"));
  mkDiff "list-without-prune" ["ListDead"; "Stats"]
    (words "#start #do:maybePrune")
    (words "#start")
    Divergent
    (("OBSERVABLE (timing only): ListDead and Stats run the retention prune first in SQLite; the Postgres "
           ++ "versions never prune"));
  mkDiff "list-include-1" ["ListDead"; "ListMessages"]
    (words ("#if go{req.IncludePayload} #assign go{includePayload = 1} #end #if go{req.IncludeHeaders} #assign "
           ++ "go{includeHeaders = 1} #end #if go{req.IncludeTrace} #assign go{includeTrace = 1} #end"))
    (words "")
    Structural
    (("payload / headers / trace are left out by the statement in SQLite (CASE WHEN ? ..) and in Go after the "
           ++ "scan in Postgres (list-include-3)"));
  mkDiff "list-include-2" ["ListDead"; "ListMessages"]
    (words ("SELECT id , route , target , state , received_at , attempt , next_run_at , CASE WHEN @{includePayload} "
           ++ "THEN payload ELSE NULL END , CASE WHEN @{includeHeaders} THEN headers_json ELSE NULL END , CASE WHEN "
           ++ "@{includeTrace} THEN trace_json ELSE NULL END , schema_version , dead_reason"))
    (words ("SELECT id , route , target , state , received_at , attempt , next_run_at , payload , headers_json , "
           ++ "trace_json , dead_reason , schema_version , lease_id , lease_until"))
    Divergent
    (("OBSERVABLE: the Postgres listing also reads lease_id and lease_until, so ListMessages of a leased message "
           ++ "carries LeaseID / LeaseUntil from Postgres and not from SQLite or memory"));
  mkDiff "list-include-3" ["ListDead"; "ListMessages"]
    (words "LIMIT @{limit} #endstmt")
    (words ("LIMIT @{limit} #endstmt #for go{rows.Next()} #if go{!req.IncludePayload} #assign go{item.Payload = nil} "
           ++ "#end #if go{!req.IncludeHeaders} #assign go{item.Headers = nil} #end #if go{!req.IncludeTrace} #assign "
           ++ "go{item.Trace = nil} #end #end"))
    Structural
    ("see list-include-1");
  mkDiff "requeue-dead-by-id" ["RequeueDead"]
    (words ("#stmt:exec UPDATE queue_items SET state = 'queued' , lease_id = NULL , lease_until = NULL , next_run_at = "
           ++ "@{now} , dead_reason = NULL WHERE state = 'dead' AND id IN ( @{ids} ) #endstmt"))
    (words ("#begin #defer-rollback #for go{range ids} #stmt:exec UPDATE queue_items SET state = 'queued' , lease_id = "
           ++ "NULL , lease_until = NULL , next_run_at = @{now} , dead_reason = NULL WHERE id = @{id} AND state = 'dead' "
           ++ "#endstmt #end #commit"))
    Structural
    (("one statement over the id list (SQLite) = one transaction with one statement per id (Postgres); same "
           ++ "guard on state"));
  mkDiff "delete-dead-by-id" ["DeleteDead"]
    (words "#stmt:exec DELETE FROM queue_items WHERE state = 'dead' AND id IN ( @{ids} ) #endstmt")
    (words ("#begin #defer-rollback #for go{range ids} #stmt:exec DELETE FROM queue_items WHERE id = @{id} AND state = "
           ++ "'dead' #endstmt #end #commit"))
    Structural
    ("as requeue-dead-by-id");
  mkDiff "stats-oldest-and-lag" ["Stats"]
    (words ("#stmt:row SELECT MIN ( received_at ) , MIN ( next_run_at ) FROM queue_items WHERE state = 'queued' "
           ++ "#endstmt #if go{!oldestQueuedReceivedAt.IsZero() && !pruneNow.Before(oldestQueuedReceivedAt)} #assign "
           ++ "go{oldestQueuedAge = pruneNow.Sub(oldestQueuedReceivedAt)} #end #if go{!earliestQueuedNextRun.IsZero() && "
           ++ "pruneNow.After(earliestQueuedNextRun)} #assign go{readyLag = pruneNow.Sub(earliestQueuedNextRun)} #end"))
    (words ("#stmt:row SELECT MIN ( received_at ) FROM queue_items WHERE state = 'queued' #endstmt #if "
           ++ "go{oldestQueued.Valid} #if go{stats.OldestQueuedAge < 0} #assign go{stats.OldestQueuedAge = 0} #end #end "
           ++ "#stmt:row SELECT MIN ( next_run_at ) FROM queue_items WHERE state = 'queued' #endstmt #if "
           ++ "go{earliestReady.Valid} #if go{stats.ReadyLag < 0} #assign go{stats.ReadyLag = 0} #end #end"))
    Structural
    ("two aggregates in one statement vs one statement each; both clamp a negative age / lag to zero");
  mkDiff "stats-bucket-ages-1" ["Stats"]
    (words "SELECT route , target , COUNT ( * ) , MIN ( received_at ) , MIN ( next_run_at )")
    (words "SELECT route , target , COUNT ( * )")
    Divergent
    ("see stats-bucket-ages-2");
  mkDiff "stats-bucket-ages-2" ["Stats"]
    (words ("LIMIT @{statsTopBacklogLimit} #endstmt #for go{backlogRows.Next()} #if "
           ++ "go{!b.OldestQueuedReceivedAt.IsZero() && !pruneNow.Before(b.OldestQueuedReceivedAt)} #assign "
           ++ "go{b.OldestQueuedAge = pruneNow.Sub(b.OldestQueuedReceivedAt)} #end #if "
           ++ "go{!b.EarliestQueuedNextRun.IsZero() && pruneNow.After(b.EarliestQueuedNextRun)} #assign go{b.ReadyLag = "
           ++ "pruneNow.Sub(b.EarliestQueuedNextRun)} #end #end"))
    (words "LIMIT @{statsTopBacklogLimit} #endstmt")
    Divergent
    (("OBSERVABLE: Stats().TopQueued[i] has OldestQueuedReceivedAt / EarliestQueuedNextRun / OldestQueuedAge / "
           ++ "ReadyLag filled by SQLite and memory and left zero by Postgres"));
  mkDiff "attempt-null-encoding-1" ["RecordAttempt"]
    (words ("#if go{attempt.StatusCode != 0} #assign go{statusCode = attempt.StatusCode} #end #if go{attempt.Error != "
           ++ """""} #assign go{errVal = attempt.Error} #end #if go{attempt.DeadReason != """"} #assign go{deadReason = "
           ++ "attempt.DeadReason} #end"))
    (words "")
    Structural
    ("see attempt-null-encoding-2");
  mkDiff "attempt-null-encoding-2" ["RecordAttempt"]
    (words "@{statusCode} , @{errVal} , @{string(attempt.Outcome)} , @{deadReason} , @{attempt.CreatedAt} ) #endstmt")
    (words ("@{nullInt(attempt.StatusCode)} , @{nullIfEmpty(attempt.Error)} , @{string(attempt.Outcome)} , "
           ++ "@{nullIfEmpty(attempt.DeadReason)} , @{attempt.CreatedAt} ) #endstmt"))
    Structural
    (("a zero status code / empty error / empty dead reason become NULL: SQLite by local variables left nil, Postgres "
           ++ "by nullInt (== 0) and nullIfEmpty; a duplicate attempt id is mapped to ErrEnvelopeExists by both "
           ++ "(fixes 3c4902c, 42c7a85; before them SQLite dropped negative status codes and returned the raw "
           ++ "constraint error)"));
  mkDiff "attempts-where-clause" ["ListAttempts"]
    (words ("WHERE 1 = 1 #opt go{req.Route != """"} AND route = @{req.Route} #endopt #opt go{req.Target != """"} AND "
           ++ "target = @{req.Target} #endopt #opt go{req.EventID != """"} AND event_id = @{req.EventID} #endopt #opt "
           ++ "go{req.Outcome != """"} AND outcome = @{string(req.Outcome)} #endopt #opt go{!req.Before.IsZero()} AND "
           ++ "created_at < @{req.Before} #endopt"))
    (words ("#opt go{len(where) > 0} WHERE #opt go{req.Route != """"} #sep{AND} route = @{req.Route} #endopt #opt "
           ++ "go{req.Target != """"} #sep{AND} target = @{req.Target} #endopt #opt go{req.EventID != """"} #sep{AND} "
           ++ "event_id = @{req.EventID} #endopt #opt go{req.Outcome != """"} #sep{AND} outcome = @{string(req.Outcome)} "
           ++ "#endopt #opt go{!req.Before.IsZero()} #sep{AND} created_at < @{req.Before} #endopt #endopt"))
    Structural
    (("`WHERE 1 = 1 AND c1 AND c2` against `WHERE c1 AND c2` assembled with strings.Join: the same conjunction "
           ++ "of the same optional conditions"));
  mkDiff "ack-batch" ["AckBatch"]
    (words ("#start #do:withLeaseBatch #closure #if go{s.deliveredRetentionMaxAge > 0} #stmt:exec UPDATE queue_items "
           ++ "SET state = 'delivered' , lease_id = NULL , lease_until = NULL , next_run_at = @{now} , dead_reason = "
           ++ "NULL WHERE id IN ( @{itemIDs} ) #endstmt #end #stmt:exec DELETE FROM queue_items WHERE id IN ( @{itemIDs} "
           ++ ") #endstmt #end"))
    (words ("#start #for go{range leaseIDs} #do:Ack #switch go{} #case go{errors.Is(err, ErrLeaseExpired)} #assign "
           ++ "go{res.Conflicts = append(res.Conflicts, LeaseBatchConflict{ LeaseID: leaseID, Expired: true, })} #case "
           ++ "go{errors.Is(err, ErrLeaseNotFound)} #assign go{res.Conflicts = append(res.Conflicts, "
           ++ "LeaseBatchConflict{LeaseID: leaseID})} #case go{default} #end #end"))
    Structural
    (("queue.LeaseBatchStore asks for one transaction `where possible`: SQLite resolves all leases and mutates "
           ++ "in one transaction (withLeaseBatch), Postgres calls the single operation per lease id and collects the "
           ++ "same conflict records (not-found / expired); a batch is therefore not atomic in Postgres"));
  mkDiff "nack-batch" ["NackBatch"]
    (words ("#start #if go{delay < 0} #assign go{delay = 0} #end #do:withLeaseBatch #closure #stmt:exec UPDATE "
           ++ "queue_items SET state = 'queued' , lease_id = NULL , lease_until = NULL , next_run_at = "
           ++ "@{saturatingUnixNanoAfter(now, delay)} , dead_reason = NULL WHERE id IN ( @{itemIDs} ) #endstmt #end"))
    (words ("#start #for go{range leaseIDs} #do:Nack #switch go{} #case go{errors.Is(err, ErrLeaseExpired)} #assign "
           ++ "go{res.Conflicts = append(res.Conflicts, LeaseBatchConflict{ LeaseID: leaseID, Expired: true, })} #case "
           ++ "go{errors.Is(err, ErrLeaseNotFound)} #assign go{res.Conflicts = append(res.Conflicts, "
           ++ "LeaseBatchConflict{LeaseID: leaseID})} #case go{default} #end #end"))
    Structural
    ("as ack-batch");
  mkDiff "mark-dead-batch" ["MarkDeadBatch"]
    (words ("#start #if go{strings.TrimSpace(reason) != """"} #assign go{deadReason = reason} #end #do:withLeaseBatch "
           ++ "#closure #stmt:exec UPDATE queue_items SET state = 'dead' , lease_id = NULL , lease_until = NULL , "
           ++ "next_run_at = @{now} , dead_reason = @{deadReason} WHERE id IN ( @{itemIDs} ) #endstmt #end"))
    (words ("#start #for go{range leaseIDs} #do:MarkDead #switch go{} #case go{errors.Is(err, ErrLeaseExpired)} "
           ++ "#assign go{res.Conflicts = append(res.Conflicts, LeaseBatchConflict{ LeaseID: leaseID, Expired: true, })} "
           ++ "#case go{errors.Is(err, ErrLeaseNotFound)} #assign go{res.Conflicts = append(res.Conflicts, "
           ++ "LeaseBatchConflict{LeaseID: leaseID})} #case go{default} #end #end"))
    Structural
    ("as ack-batch");
  mkDiff "capture-aggregation-1" ["CaptureBacklogTrendSample"]
    (words ("#do:maybePrune #stmt:query SELECT route , target , state , COUNT ( * ) FROM queue_items WHERE state IN ( "
           ++ "'queued' , 'leased' , 'dead' ) GROUP BY route , target , state #endstmt"))
    (words "#do:maybePrune")
    Structural
    (("SQLite counts per (route, target, state) with one query and sums in Go; Postgres aggregates inside the "
           ++ "INSERT .. SELECT statements (capture-aggregation-3)"));
  mkDiff "capture-aggregation-2" ["CaptureBacklogTrendSample"]
    (words "WHERE captured_at < @{capturedAt.Add(-backlogTrendRetention)}")
    (words "WHERE captured_at < @{retentionCutoff}")
    Structural
    ("the same value through a local variable (retentionCutoff := capturedAt.Add(-backlogTrendRetention).UnixNano())");
  mkDiff "capture-aggregation-3" ["CaptureBacklogTrendSample"]
    (words ("VALUES ( @{capturedNanos} , '' , '' , @{global.queued} , @{global.leased} , @{global.dead} ) #endstmt "
           ++ "#for go{range keys} #if go{len(parts) > 1} #assign go{target = parts[1]} #end #stmt:exec INSERT INTO "
           ++ "backlog_trend_samples ( captured_at , route , target , queued , leased , dead ) VALUES ( @{capturedNanos} "
           ++ ", @{route} , @{target} , @{c.queued} , @{c.leased} , @{c.dead} ) #endstmt #end"))
    (words ("SELECT @{capturedNanos} , '' , '' , COALESCE ( SUM ( CASE WHEN state = 'queued' THEN 1 ELSE 0 END ) , 0 ) "
           ++ ", COALESCE ( SUM ( CASE WHEN state = 'leased' THEN 1 ELSE 0 END ) , 0 ) , COALESCE ( SUM ( CASE WHEN "
           ++ "state = 'dead' THEN 1 ELSE 0 END ) , 0 ) FROM queue_items WHERE state IN ( 'queued' , 'leased' , 'dead' ) "
           ++ "#endstmt #stmt:exec INSERT INTO backlog_trend_samples ( captured_at , route , target , queued , leased , "
           ++ "dead ) SELECT @{capturedNanos} , route , target , SUM ( CASE WHEN state = 'queued' THEN 1 ELSE 0 END ) AS "
           ++ "queued , SUM ( CASE WHEN state = 'leased' THEN 1 ELSE 0 END ) AS leased , SUM ( CASE WHEN state = 'dead' "
           ++ "THEN 1 ELSE 0 END ) AS dead FROM queue_items WHERE state IN ( 'queued' , 'leased' , 'dead' ) GROUP BY "
           ++ "route , target #endstmt"))
    Structural
    (("see capture-aggregation-1; same three states, same global row (route = target = '') and one row per "
           ++ "(route, target)"));
  mkDiff "dequeue-batch-reclamp" ["dequeueOnce"]
    (words "#start")
    (words "#start #if go{batch == 0} #assign go{batch = 1} #end")
    Structural
    (("Postgres re-clamps the batch it was handed (clampSliceCap), SQLite re-clamps in dequeueCandidateIDsTx "
           ++ "(inside dequeue-select-and-lease)"));
  mkDiff "dequeue-lease-until-saturation" ["dequeueOnce"]
    (words ("#if go{now.IsZero()} #assign go{now = s.now()} #end #if go{leaseTTL > 0 && int64(leaseTTL) > math.MaxInt64-now.UnixNano()} "
           ++ "#assign go{leaseUntil = time.Unix(0, math.MaxInt64).In(now.Location())} #end"))
    (words "#if go{now.IsZero()} #assign go{now = s.now()} #end")
    Structural
    (("SQLite stores lease_until as int64 nanoseconds and saturates now+lease_ttl at the largest representable instant "
           ++ "(fix ea2d48a: it used to wrap to an already expired lease); Postgres stores a timestamptz, whose range "
           ++ "(year 294276) covers every time.Time the Go side can produce from now+ttl"));
  mkDiff "dequeue-sweep-throttle" ["dequeueOnce"]
    (words "#if go{s.shouldSweepExpiredLeases(now)} #do:requeueExpiredLeases #end")
    (words "#do:requeueExpiredLeases")
    Structural
    (("SQLite requeues expired leases at most once per sweep interval (10 ms), Postgres on every dequeue; the "
           ++ "model of the SQLite flavour has the throttle (Model/Queue.v), the memory store sweeps on every dequeue "
           ++ "like Postgres"));
  mkDiff "dequeue-select-and-lease" ["dequeueOnce"]
    (words ("#if go{batch == 1} #stmt:row WITH candidate AS ( SELECT id FROM queue_items WHERE state = 'queued' AND "
           ++ "next_run_at <= @{now} #opt go{req.Route != """"} AND route = @{req.Route} #endopt #opt go{req.Target != """"} "
           ++ "AND target = @{req.Target} #endopt ORDER BY next_run_at ASC , received_at ASC LIMIT 1 ) UPDATE "
           ++ "queue_items SET state = 'leased' , attempt = attempt + 1 , lease_id = @{leaseID} , lease_until = "
           ++ "@{leaseUntil} , next_run_at = @{leaseUntil} WHERE id = ( SELECT id FROM candidate ) RETURNING id , route "
           ++ ", target , received_at , attempt , payload , headers_json , trace_json , schema_version #endstmt #if "
           ++ "go{err != nil} #if go{errors.Is(err, sql.ErrNoRows)} #ret:ok #end #end #if go{ok} #commit #ret:ok #end "
           ++ "#commit #ret:ok #end #if go{batch <= 0} #assign go{batch = 1} #end #if go{batch > 100} #assign go{batch = "
           ++ "100} #end #stmt:query SELECT id FROM queue_items WHERE state = 'queued' AND next_run_at <= @{now} #opt "
           ++ "go{req.Route != """"} AND route = @{req.Route} #endopt #opt go{req.Target != """"} AND target = @{req.Target} "
           ++ "#endopt ORDER BY next_run_at ASC , received_at ASC LIMIT @{batch} #endstmt #if go{len(ids) == 0} #commit "
           ++ "#ret:ok #end #if go{len(ids) == 1} #stmt:row UPDATE queue_items SET state = 'leased' , attempt = attempt "
           ++ "+ 1 , lease_id = @{leaseID} , lease_until = @{leaseUntil} , next_run_at = @{leaseUntil} WHERE state = "
           ++ "'queued' AND id = @{id} RETURNING id , route , target , received_at , attempt , payload , headers_json , "
           ++ "trace_json , schema_version #endstmt #if go{err != nil} #if go{errors.Is(err, sql.ErrNoRows)} #ret:ok "
           ++ "#end #end #if go{ok} #commit #ret:ok #end #end #if go{len(ids) == 0} #ret:ok #end #stmt:query UPDATE "
           ++ "queue_items SET state = 'leased' , attempt = attempt + 1 , lease_id = 'lease_' || lower ( hex ( "
           ++ "randomblob ( 8 ) ) ) , lease_until = @{leaseUntil} , next_run_at = @{leaseUntil} WHERE state = 'queued' "
           ++ "AND id IN ( @{ids} ) RETURNING id , route , target , received_at , attempt , payload , headers_json , "
           ++ "trace_json , schema_version , lease_id #endstmt #if go{filledCount == len(out)} #ret:ok #end #commit"))
    (words ("#stmt:query SELECT id , route , target , state , received_at , attempt , next_run_at , payload , "
           ++ "headers_json , trace_json , dead_reason , schema_version FROM queue_items WHERE route = @{req.Route} AND "
           ++ "target = @{req.Target} AND state = 'queued' AND next_run_at <= @{now} ORDER BY next_run_at ASC , "
           ++ "received_at ASC , id ASC LIMIT @{batch} FOR UPDATE SKIP LOCKED #endstmt #if go{len(items) == 0} #commit "
           ++ "#ret:ok #end #for go{range items} #stmt:exec UPDATE queue_items SET state = 'leased' , attempt = attempt "
           ++ "+ 1 , lease_id = @{leaseID} , lease_until = @{leaseUntil} , next_run_at = @{leaseUntil} , dead_reason = "
           ++ "NULL WHERE id = @{items[i].ID} AND state = 'queued' #endstmt #end #commit"))
    Divergent
    (("structure: SQLite selects candidates and leases them with UPDATE .. RETURNING (three shapes by batch "
           ++ "size) under BEGIN IMMEDIATE; Postgres locks the candidates with SELECT .. FOR UPDATE SKIP LOCKED and "
           ++ "leases them one by one in the same transaction. Same eligibility guard (state = 'queued' AND next_run_at "
           ++ "<= now), same SET list (Postgres also clears dead_reason), same order (next_run_at, received_at; Postgres "
           ++ "adds id as tie-break: a sanctioned choice among ties). OBSERVABLE: an empty Route or Target in the "
           ++ "request means `any` for SQLite and memory (the filter is optional) but `equal to the empty string` for "
           ++ "Postgres (route = $1 AND target = $2 are unconditional)"));
  mkDiff "with-lease" ["withLease"]
    (words ("#callparam:mutate #if go{affected > 0} #ret:ok #end #begin #defer-rollback #stmt:row SELECT id , state , "
           ++ "lease_until FROM queue_items WHERE lease_id = @{leaseID} LIMIT 1 #endstmt #if go{err != nil} #if "
           ++ "go{errors.Is(err, sql.ErrNoRows)} #ret:ok #end #end #if go{state != string(StateLeased)} #ret:ok #end #if "
           ++ "go{!leaseUntilNanos.Valid} #ret:ok #end #if go{now.Before(leaseUntil)} #ret:ok #end #do:requeueLease #if "
           ++ "go{!expired} #ret:ErrLeaseNotFound #end #commit #ret:ErrLeaseExpired"))
    (words ("#begin #defer-rollback #stmt:row SELECT id , state , lease_until FROM queue_items WHERE lease_id = "
           ++ "@{leaseID} LIMIT 1 FOR UPDATE #endstmt #if go{err != nil} #if go{errors.Is(err, sql.ErrNoRows)} "
           ++ "#ret:ErrLeaseNotFound #end #end #if go{state != string(StateLeased)} #ret:ErrLeaseNotFound #end #if "
           ++ "go{leaseUntil.Valid} #if go{!now.Before(until)} #do:requeueLease #commit #ret:ErrLeaseExpired #end "
           ++ "#callparam:fn #else #callparam:fn #end #commit"))
    Structural
    (("SQLite: guarded mutation first (autocommit), and only when it touched no row a transaction that looks the "
           ++ "lease up and answers ErrLeaseNotFound (no row, not leased, not yet expired) or requeues the message and "
           ++ "answers ErrLeaseExpired (now >= lease_until). Postgres: transaction, row lock, the same classification "
           ++ "(ErrLeaseNotFound: no row / not leased; now >= lease_until: requeue, commit, ErrLeaseExpired), then the "
           ++ "mutation. Same errors for the same rows; the inlined SQLite helpers return (false, nil) where the listing "
           ++ "shows #ret:ok, which resolveLeaseMutationConflictTx turns into ErrLeaseNotFound"));
  mkDiff "requeue-lease-argument" ["requeueLease"]
    (words "WHERE id = @{id}")
    (words "WHERE id = @{itemID}")
    Structural
    ("parameter name");
  mkDiff "prune-preconditions" ["maybePrune"]
    (words ("#start #if go{s.pruneInterval <= 0} #ret:ok #end #if go{s.retentionMaxAge <= 0 && "
           ++ "s.deliveredRetentionMaxAge <= 0 && s.dlqRetentionMaxAge <= 0 && s.dlqMaxDepth <= 0} #ret:ok #end #if "
           ++ "go{!s.lastPrune.IsZero() && now.Sub(s.lastPrune) < s.pruneInterval} #ret:ok #end"))
    (words ("#start #if go{s.retentionMaxAge <= 0 && s.deliveredRetentionMaxAge <= 0 && s.dlqRetentionMaxAge <= 0 && "
           ++ "s.dlqMaxDepth <= 0} #ret:ok #end #if go{s.pruneInterval <= 0} #ret:ok #end #if go{!s.lastPrune.IsZero() "
           ++ "&& now.Before(s.lastPrune.Add(s.pruneInterval))} #ret:ok #end"))
    Structural
    ("the same three early returns in another order; now - last < interval is now < last + interval");
  mkDiff "prune-queued-boundary" ["maybePrune"]
    (words "WHERE state = 'queued' AND received_at <= @{cutoff}")
    (words "WHERE state = 'queued' AND received_at < @{cutoff}")
    Divergent
    (("OBSERVABLE: a queued message received exactly max_age before the prune is deleted by SQLite (and memory) "
           ++ "and kept by Postgres"));
  mkDiff "prune-delivered-column" ["maybePrune"]
    (words "WHERE state = 'delivered' AND next_run_at <= @{cutoff}")
    (words "WHERE state = 'delivered' AND received_at < @{cutoff}")
    Divergent
    (("OBSERVABLE: delivered retention counts from the delivery instant (next_run_at, set by Ack) in SQLite and "
           ++ "memory, from received_at in Postgres: a message delivered late is kept for delivered_retention after "
           ++ "delivery by SQLite but may vanish at the first prune in Postgres; boundary <= vs <"));
  mkDiff "prune-dead-boundary" ["maybePrune"]
    (words "WHERE state = 'dead' AND received_at <= @{cutoff}")
    (words "WHERE state = 'dead' AND received_at < @{cutoff}")
    Divergent
    ("OBSERVABLE: as prune-queued-boundary, for dead letters");
  mkDiff "prune-dlq-depth" ["maybePrune"]
    (words "ORDER BY received_at DESC LIMIT -1 OFFSET")
    (words "ORDER BY received_at DESC , id DESC OFFSET")
    Structural
    (("SQLite needs LIMIT -1 before OFFSET; Postgres breaks received_at ties by id (which dead letters of one "
           ++ "instant survive is a sanctioned choice)"));
  mkDiff "filter-state-list" ["selectMessageIDsByFilter"]
    (words ("#opt go{len(states) == 1} AND state = @{string(states[0])} #optelse AND state IN ( @{states:string(st)} ) "
           ++ "#endopt"))
    (words "AND state IN ( @{stateStrings} )")
    Structural
    (("one state: `state = ?`, several: `state IN (?,..)` (SQLite); always `state = ANY($n)` over the same list "
           ++ "(Postgres)"));
  mkDiff "drop-oldest-tiebreak" ["dropOldestQueued"]
    (words "ORDER BY received_at ASC LIMIT 1")
    (words "ORDER BY received_at ASC , id ASC LIMIT 1")
    Structural
    (("the victim among equally old queued messages is a sanctioned choice (props/c13.py treats it so for memory "
           ++ "vs SQLite)"));
  mkDiff "active-count" ["activeCount"]
    (words ("#start #stmt:row SELECT queued , leased FROM queue_counters WHERE id = 1 #endstmt #if go{err == nil} "
           ++ "#ret:ok #end #stmt:row SELECT COUNT ( * ) FROM queue_items WHERE state IN ( 'queued' , 'leased' ) "
           ++ "#endstmt"))
    (words "#start #stmt:row SELECT COUNT ( * ) FROM queue_items WHERE state = 'queued' OR state = 'leased' #endstmt")
    Structural
    (("SQLite keeps trigger-maintained counters (queue_counters) with the COUNT(*) as fall-back; Postgres "
           ++ "counts; both count queued + leased"));
  mkDiff "insert-error-test" ["mapInsertError"]
    (words "#if go{isSQLiteConstraintError(err)}")
    (words "#if go{errors.As(err, &pgErr) && pgErr.Code == ""23505""}")
    Structural
    ("how each driver reports a primary-key violation; both map it to ErrEnvelopeExists");
  mkDiff "constructor" ["NewStore"]
    (words ("#field go{notify: make(chan struct{})} #field go{pollInterval: 25 * time.Millisecond} #field "
           ++ "go{dropPolicy: ""reject""} #field go{metrics: newSQLiteRuntimeMetrics()} #field go{checkpointInterval: "
           ++ "defaultSQLiteCheckpointInterval} #if go{dbPath == """"} #ret:new{empty db path} #end #do:init "
           ++ "#do:startCheckpointLoop"))
    (words ("#field go{pollInterval: 25 * time.Millisecond} #field go{dropPolicy: ""reject""} #field go{metrics: "
           ++ "newPostgresRuntimeMetrics()} #if go{dsn == """"} #ret:new{empty postgres dsn} #end #do:init"))
    Structural
    (("same defaults (poll interval 25 ms, drop policy reject, clock time.Now); wake-up channel, WAL checkpoint "
           ++ "loop and metrics type are engine matters"))
].

(* ------------------------------------------------------------------------- *)
(** applying the table *)

Fixpoint apply_diffs (ds : list diff) (name : string) (l : list string) : list string * list string :=
  (* result, ids of listed differences that did not occur *)
  match ds with
  | [] => (l, [])
  | d :: r =>
    if mem name (d_in d) then
      let (l', n) := replace_all (S (length l)) (d_sqlite d) (d_pg d) l in
      let (out, missing) := apply_diffs r name l' in
      (out, if Nat.eqb n 0 then d_id d :: missing else missing)
    else apply_diffs r name l
  end.

(** the normalised skeletons of the helpers that are read in place *)
Definition sk_table (cm : callmap) (d : dialect) (names : list string) (tbl : list (string * list string)) : list (string * list string) :=
  map (fun p => (fst p, norm cm d (snd p))) (filter (fun p => mem (fst p) names) tbl).

(** the normalised SQLite side of a tie: helpers read in place, then the listed differences *)
(** both sides start with the marker [#start], so that a listed difference can be anchored at the beginning *)
Definition sqlite_side (tbl : list (string * list string)) (name : string) (sk : list string) : list string * list string :=
  apply_diffs allowed_diffs name
    ("#start" :: inline 3 sqlite_inlined (sk_table sqlite_calls Sqlite sqlite_inlined tbl) (norm_sqlite sk)).

Definition pg_side (sk : list string) : list string := "#start" :: norm_pg sk.

Definition tie_holds (tbl : list (string * list string)) (name : string) (sq pg : list string) : bool :=
  let (l, missing) := sqlite_side tbl name sq in
  list_eqb l (pg_side pg) && match missing with [] => true | _ => false end.
