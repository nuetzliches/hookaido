(** Lemmas about Model/Resolve.v.  Resolution is [find], so first-match is a fact about [find];
    the Allow list is a fold of [add_new], whose members are those of a [flat_map] over a [filter]. *)
From Coq Require Import List NArith Bool Lia.
From HK Require Import Model.RBytes Model.PathClean Model.Resolve Proofs.RBytesProofs.
Import ListNotations.
Open Scope N_scope.

Lemma find_first : forall (A : Type) (f : A -> bool) (l : list A) (x : A),
  find f l = Some x <->
  exists i, nth_error l i = Some x /\ f x = true /\
            forall j y, (j < i)%nat -> nth_error l j = Some y -> f y = false.
Proof.
  intros A f l. induction l as [|a l IH]; intros x; simpl.
  - split; [discriminate|]. intros [[|i] [H _]]; discriminate.
  - destruct (f a) eqn:Fa.
    + (* [a] is the first match, at index 0 *)
      split.
      * intro H. injection H as H. subst x. exists 0%nat. split; [reflexivity|]. split; [exact Fa|].
        intros j y Hj. lia.
      * intros [[|i] [Hn [_ Hb]]]; [exact Hn|].
        rewrite (Hb 0%nat a) in Fa; [discriminate | lia | reflexivity].
    + (* [a] is skipped: the indices shift by one *)
      rewrite IH. split; intros [i [Hn [Hf Hb]]].
      * exists (S i). split; [exact Hn|]. split; [exact Hf|].
        intros [|j] y Hj Hy; [injection Hy as Hy; subst y; exact Fa|].
        apply (Hb j y); [lia | exact Hy].
      * destruct i as [|i]; [injection Hn as Hn; subst x; congruence|].
        exists i. split; [exact Hn|]. split; [exact Hf|].
        intros j y Hj Hy. apply (Hb (S j) y); [lia | exact Hy].
Qed.

Lemma forallb_iff : forall (A : Type) (f : A -> bool) (P : A -> Prop) l,
  (forall x, f x = true <-> P x) -> (forallb f l = true <-> forall x, In x l -> P x).
Proof.
  intros A f P l H. rewrite forallb_forall. split; intros G x Hx; apply H, G, Hx.
Qed.

Lemma forallb_pairs_iff : forall (A B : Type) (f : A * B -> bool) (P : A -> B -> Prop) l,
  (forall a b, f (a, b) = true <-> P a b) -> (forallb f l = true <-> forall a b, In (a, b) l -> P a b).
Proof.
  intros A B f P l H. rewrite forallb_forall. split.
  - intros G a b Hab. apply H, G, Hab.
  - intros G [a b] Hab. apply H, G, Hab.
Qed.

Lemma is_nil_false : forall (A : Type) (l : list A), negb (is_nil l) = true <-> l <> [].
Proof. intros A l. destruct l; simpl; split; intro H; congruence. Qed.

Section Proofs.
Variable parse_addr : bytes -> option ip.

Lemma resolve_first_match : forall rs q p r,
  resolve parse_addr rs q p = Some r <->
  exists i, nth_error rs i = Some r /\ criteria parse_addr q p r = true /\
            forall j r', (j < i)%nat -> nth_error rs j = Some r' -> criteria parse_addr q p r' = false.
Proof. intros. unfold resolve. apply find_first. Qed.

Lemma resolve_none : forall rs q p,
  resolve parse_addr rs q p = None <-> forall r, In r rs -> criteria parse_addr q p r = false.
Proof.
  intros rs q p. unfold resolve. split.
  - intros H r Hr. exact (find_none _ _ H r Hr).
  - intro H. destruct (find (criteria parse_addr q p) rs) eqn:E; [|reflexivity].
    apply find_some in E. destruct E as [Hi Hc]. rewrite (H r Hi) in Hc. discriminate.
Qed.

Lemma accepts_ingress_spec : forall r,
  accepts_ingress r = true <-> r_channel r <> ch_outbound /\ r_channel r <> ch_internal.
Proof.
  intro r. unfold accepts_ingress. rewrite andb_true_iff, !negb_true_iff, !beq_neq. reflexivity.
Qed.

(** both scans of the route list (resolution and the Allow list) test the channel *)
Lemma cbm_channel : forall q p r,
  criteria_but_method parse_addr q p r = true -> r_channel r <> ch_outbound /\ r_channel r <> ch_internal.
Proof.
  intros q p r H. unfold criteria_but_method in H.
  rewrite !andb_true_iff, accepts_ingress_spec in H. tauto.
Qed.

(** channel isolation: whatever the configuration and the request, ingress never
    hands a request to a route declared outbound or internal *)
Lemma channel_isolation : forall rs q p r,
  resolve parse_addr rs q p = Some r -> r_channel r <> ch_outbound /\ r_channel r <> ch_internal.
Proof.
  intros rs q p r H. unfold resolve in H. apply find_some in H. destruct H as [_ H].
  unfold criteria in H. apply andb_true_iff in H. destruct H as [H _].
  exact (cbm_channel q p r H).
Qed.

Section Serve.
Variable store : Type.
Variable pipeline : route -> request -> bytes -> store -> N * store.

(** no route: 404, or 405 with the Allow list when only the method differs; the queue is untouched *)
Lemma no_match_no_effect : forall rs q st,
  resolve parse_addr rs q (ingress_request_path (q_url_path q)) = None ->
  let al := allowed_methods parse_addr rs q (ingress_request_path (q_url_path q)) in
  let '(resp, st') := ingress_serve parse_addr store pipeline rs q st in
  st' = st /\
  ((al = [] /\ rs_status resp = 404 /\ rs_allow resp = None) \/
   (al <> [] /\ rs_status resp = 405 /\ rs_allow resp = Some (join comma_space al))).
Proof.
  intros rs q st H. unfold ingress_serve. rewrite H.
  destruct (allowed_methods parse_addr rs q (ingress_request_path (q_url_path q))) as [|m l] eqn:E; simpl.
  - split; [reflexivity | left; repeat split; reflexivity].
  - split; [reflexivity | right; split; [discriminate | split; reflexivity]].
Qed.

End Serve.
End Proofs.

Lemma shiftr_lxor_zero : forall a b k, N.shiftr (N.lxor a b) k = 0 <-> N.shiftr a k = N.shiftr b k.
Proof.
  intros a b k. rewrite N.shiftr_lxor. split.
  - apply N.lxor_eq.
  - intro H. rewrite H. apply N.lxor_nilpotent.
Qed.

Definition header_value_ok (expected v : bytes) : Prop :=
  v = expected \/ exists part, In part (split_on 44 v) /\ trim part = expected.

Lemma header_value_matches_spec : forall e v, header_value_matches e v = true <-> header_value_ok e v.
Proof.
  intros e v. unfold header_value_matches, header_value_ok.
  rewrite orb_true_iff, beq_eq, existsb_exists. setoid_rewrite beq_eq. reflexivity.
Qed.

Lemma match_header_values_spec : forall vs e,
  match_header_values vs e = true <-> exists x, In x vs /\ header_value_ok e x.
Proof.
  intros vs e. unfold match_header_values. rewrite existsb_exists.
  setoid_rewrite header_value_matches_spec. reflexivity.
Qed.

Lemma add_new_In : forall ms seen m, In m (add_new seen ms) <-> In m seen \/ In m ms.
Proof.
  induction ms as [|a ms IH]; intros seen m; simpl.
  - tauto.
  - destruct (mem a seen) eqn:E.
    + rewrite IH. apply mem_In in E. split; [tauto|]. intros [H | [H | H]]; [tauto | subst; tauto | tauto].
    + rewrite IH. rewrite in_app_iff. simpl. tauto.
Qed.

Lemma add_new_NoDup : forall ms seen, NoDup seen -> NoDup (add_new seen ms).
Proof.
  induction ms as [|a ms IH]; intros seen H; simpl; [exact H|].
  destruct (mem a seen) eqn:E; apply IH; [exact H|].
  apply (NoDup_Add (Add_app a seen [])). rewrite app_nil_r. split; [exact H|].
  intro Hi. apply mem_In in Hi. congruence.
Qed.

Section FoldAddNew.
Variables (A : Type) (f : A -> bool) (g : A -> list bytes).

Lemma fold_add_new_In : forall l seen m,
  In m (fold_left (fun seen a => if f a then add_new seen (g a) else seen) l seen) <->
  In m seen \/ In m (flat_map g (filter f l)).
Proof.
  induction l as [|a l IH]; intros seen m; simpl; [tauto|].
  rewrite IH. destruct (f a); simpl; [rewrite add_new_In, in_app_iff|]; tauto.
Qed.

Lemma fold_add_new_NoDup : forall l seen,
  NoDup seen -> NoDup (fold_left (fun seen a => if f a then add_new seen (g a) else seen) l seen).
Proof.
  induction l as [|a l IH]; intros seen H; simpl; [exact H|].
  apply IH. destruct (f a); [apply add_new_NoDup|]; exact H.
Qed.

End FoldAddNew.

Lemma methods_of_nonempty : forall r, methods_of r <> [].
Proof. intro r. unfold methods_of. destruct (r_methods r); discriminate. Qed.
