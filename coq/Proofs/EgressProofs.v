(** Lemmas about the egress model (Model/Egress.v). *)
From Coq Require Import String Ascii List Bool NArith ZArith Arith Lia.
From HK Require Import Model.StrUtil Model.IpClass Model.IpSpec Model.Egress Proofs.IpClassProofs.
Import ListNotations.
Local Open Scope string_scope.

Lemma append_nil_r s : s ++ "" = s.
Proof. induction s; cbn; congruence. Qed.

Lemma length_append s t : String.length (s ++ t) = String.length s + String.length t.
Proof. induction s; cbn; auto. Qed.

Lemma has_suffix_spec suf s : has_suffix suf s = true <-> exists p, s = p ++ suf.
Proof.
  induction s as [|c t IH]; cbn [has_suffix].
  - destruct (String.eqb_spec "" suf) as [E|E].
    + split; [intros _; exists ""; subst; reflexivity | reflexivity].
    + split; [discriminate|]. intros [p Hp]. destruct p; cbn in Hp; [congruence | discriminate].
  - destruct (String.eqb_spec (String c t) suf) as [E|E].
    + split; [intros _; exists ""; subst; reflexivity | reflexivity].
    + rewrite IH. split.
      * intros [p Hp]. exists (String c p). cbn. congruence.
      * intros [p Hp]. destruct p as [|c' p]; cbn in Hp; [congruence|].
        inversion Hp; subst. exists p. reflexivity.
Qed.

Lemma append_dot_neq l d : l ++ "." ++ d <> d.
Proof.
  intros H. apply (f_equal String.length) in H. rewrite length_append in H. cbn in H. lia.
Qed.

Definition host_rule (d : string) (sub : bool) : rule :=
  {| r_is_cidr := false; r_host := d; r_sub := sub; r_px := {| px_fam := FBad; px_addr := 0; px_bits := 0 |} |}.

(** matchHostRule: neither side empty; then "*", or the host itself, or - for "*.d" - a proper
    sub-domain of it. *)
Lemma match_host_spec h r :
  match_host h r = true <->
  r_host r <> "" /\ h <> "" /\
  (r_host r = "*" \/
   if r_sub r then h <> r_host r /\ exists l, h = l ++ "." ++ r_host r else h = r_host r).
Proof.
  unfold match_host.
  destruct (String.eqb_spec (r_host r) "") as [E1|E1]; cbn [orb]; [intuition congruence|].
  destruct (String.eqb_spec h "") as [E2|E2]; [intuition congruence|].
  destruct (String.eqb_spec (r_host r) "*") as [E3|E3]; [intuition congruence|].
  destruct (r_sub r); cbn [negb].
  - destruct (String.eqb_spec h (r_host r)) as [E4|E4]; [intuition congruence|].
    rewrite has_suffix_spec. intuition congruence.
  - destruct (String.eqb_spec h (r_host r)); intuition congruence.
Qed.

Lemma match_rule_spec host ips r :
  match_rule host ips r = true <->
  if r_is_cidr r then exists i, In i ips /\ cidr_hit (r_px r) i = true
  else match_host host r = true.
Proof.
  unfold match_rule. destruct (r_is_cidr r); [apply existsb_exists | reflexivity].
Qed.

Definition resolved_addrs (u : hop) : list ip :=
  match h_literal u with
  | Some a => [a]
  | None => match h_dns u with DnsErr => [] | DnsOk l => somes l end
  end.

Lemma somes_In {A} (l : list (option A)) x : In x (somes l) <-> In (Some x) l.
Proof.
  induction l as [|[y|] t IH]; cbn; [tauto | |].
  - rewrite IH. split; intros [H|H]; auto; left; congruence.
  - rewrite IH. split; [auto | intros [H|H]; [discriminate | auto]].
Qed.

Lemma resolve_true u :
  resolve true u = match resolved_addrs u with [] => None | ips => Some ips end.
Proof.
  unfold resolve, resolved_addrs. cbn [negb].
  destruct (h_literal u); [reflexivity|]. destruct (h_dns u); reflexivity.
Qed.

Lemma resolve_false u : resolve false u = Some [].
Proof. reflexivity. Qed.

Definition ips_seen (p : policy) (u : hop) : list ip :=
  if need_ips p then resolved_addrs u else [].

(** [check] is a cascade of refusals; it allows iff every test of the cascade is passed. *)
Lemma if_deny (c : bool) (v rest : verdict) :
  v <> Allow -> ((if c then v else rest) = Allow <-> c = false /\ rest = Allow).
Proof. intros Hv. destruct c; intuition congruence. Qed.

Lemma andb_negb_false a b : a && negb b = false <-> (a = true -> b = true).
Proof. destruct a, b; cbn; intuition congruence. Qed.

Lemma not_nil_iff {A} (l : list A) : negb (is_nil l) = true <-> l <> [].
Proof. destruct l; cbn; intuition congruence. Qed.

(** The [len(rules) > 0] guards change nothing: no rule of an empty list matches. *)
Lemma nonempty_andb {A} (l : list A) (f : list A -> bool) :
  f [] = false -> negb (is_nil l) && f l = f l.
Proof. intros H. destruct l; [symmetry; exact H | reflexivity]. Qed.

Lemma check_allow_iff p u :
  check p u = Allow <->
  scheme_ok (h_scheme u) = true /\
  (p_https_only p = true -> to_lower (h_scheme u) = "https") /\
  norm_host (h_hostname u) <> "" /\
  (need_ips p = true -> resolved_addrs u <> []) /\
  (p_rebind p = true -> forall i, In i (resolved_addrs u) -> is_allowed_ip i = true) /\
  match_rules (norm_host (h_hostname u)) (ips_seen p u) (p_deny p) = false /\
  (p_allow p <> [] -> match_rules (norm_host (h_hostname u)) (ips_seen p u) (p_allow p) = true).
Proof.
  unfold check, ips_seen. cbv zeta.
  rewrite !if_deny, negb_false_iff, andb_negb_false, String.eqb_eq, String.eqb_neq by discriminate.
  destruct (need_ips p) eqn:Eneed.
  - rewrite resolve_true. destruct (resolved_addrs u) as [|a l].
    + split; [intros (_ & _ & _ & H); discriminate H | intros (_ & _ & _ & H & _); destruct (H eq_refl eq_refl)].
    + rewrite !if_deny, !andb_negb_false, forallb_forall, not_nil_iff, nonempty_andb
        by (discriminate || reflexivity).
      intuition congruence.
  - (* no lookup: rebind protection is off, the rules see no address *)
    apply orb_false_iff in Eneed. destruct Eneed as [Er _]. rewrite Er. cbn [resolve negb andb].
    rewrite !if_deny, andb_negb_false, not_nil_iff, nonempty_andb by (discriminate || reflexivity).
    intuition congruence.
Qed.

Lemma scheme_closed p u : check p u = Allow ->
  to_lower (h_scheme u) = "http" \/ to_lower (h_scheme u) = "https".
Proof.
  intros H. apply check_allow_iff in H. destruct H as [H _]. unfold scheme_ok in H.
  apply orb_true_iff in H. rewrite !String.eqb_eq in H. exact H.
Qed.

Lemma https_only_closed p u : p_https_only p = true -> check p u = Allow ->
  to_lower (h_scheme u) = "https".
Proof. intros Hp H. apply check_allow_iff in H. tauto. Qed.

Lemma empty_host_refused p u : norm_host (h_hostname u) = "" -> check p u <> Allow.
Proof. intros Hn H. apply check_allow_iff in H. tauto. Qed.

Lemma deny_wins p u :
  match_rules (norm_host (h_hostname u)) (ips_seen p u) (p_deny p) = true -> check p u <> Allow.
Proof. intros Hm H. apply check_allow_iff in H. destruct H as (_ & _ & _ & _ & _ & H & _). congruence. Qed.

Lemma allowlist_closed p u : p_allow p <> [] -> check p u = Allow ->
  match_rules (norm_host (h_hostname u)) (ips_seen p u) (p_allow p) = true.
Proof. intros Hp H. apply check_allow_iff in H. tauto. Qed.

Lemma cidr_rule_needs_ips p r : (In r (p_allow p) \/ In r (p_deny p)) -> r_is_cidr r = true -> need_ips p = true.
Proof.
  intros Hin Hc. unfold need_ips, has_cidr_rules. apply orb_true_iff. right. apply orb_true_iff.
  destruct Hin as [Hin|Hin]; [left | right]; apply existsb_exists; exists r; auto.
Qed.

Lemma rebind_safe p u : p_rebind p = true -> check p u = Allow ->
  resolved_addrs u <> [] /\
  forall i, In i (resolved_addrs u) ->
    ~ spec_loopback i /\ ~ spec_private i /\ ~ spec_link_local i /\ ~ spec_multicast i /\ ~ spec_unspecified i.
Proof.
  intros Hp H. apply check_allow_iff in H. destruct H as (_ & _ & _ & Hne & Hall & _).
  split.
  - apply Hne. unfold need_ips. rewrite Hp. reflexivity.
  - intros i Hi. specialize (Hall Hp i Hi). apply is_allowed_ip_spec in Hall.
    destruct Hall as (_ & H1 & H2 & H3 & H4 & H5 & _). repeat split; assumption.
Qed.

Fixpoint take_while {A} (f : A -> bool) (l : list A) : list A :=
  match l with
  | [] => []
  | x :: t => if f x then x :: take_while f t else []
  end.

Definition hop_budget (p : policy) : nat := if p_redirects p then max_requests else 1.

Lemma hop_budget_le p : hop_budget p <= max_requests.
Proof. unfold hop_budget, max_requests. destruct (p_redirects p); lia. Qed.

Lemma allowed_true p u : allowed p u = true <-> check p u = Allow.
Proof. unfold allowed. destruct (check p u); split; congruence. Qed.

(** Both loops branch on the verdict in the same way: go on if allowed, else stop with it. *)
Lemma hop_step {B} p h (go : B) (stop : verdict -> B) :
  match check p h with Allow => go | v => stop v end =
  if allowed p h then go else stop (check p h).
Proof. unfold allowed. destruct (check p h); reflexivity. Qed.

Lemma follow_sent p : forall rest n,
  fst (follow p n rest) =
  firstn (if p_redirects p then max_requests - n else 0) (take_while (allowed p) rest).
Proof.
  induction rest as [|nxt rest IH]; intros n; cbn [follow take_while].
  - destruct (p_redirects p); [rewrite firstn_nil|]; reflexivity.
  - destruct (p_redirects p); cbn [negb]; [|reflexivity].
    destruct (Nat.leb_spec max_requests n) as [L|L].
    + replace (max_requests - n) with 0 by lia. reflexivity.
    + rewrite (hop_step p nxt _ (fun v => ([], OStopped v))).
      destruct (allowed p nxt); [|rewrite firstn_nil; reflexivity].
      specialize (IH (S n)). destruct (follow p (S n) rest) as [s o].
      replace (max_requests - n) with (S (max_requests - S n)) by lia. cbn [fst firstn] in *.
      rewrite IH. reflexivity.
Qed.

(** The requests sent are exactly: the longest all-allowed prefix of the chain, cut at one
    request when redirects are off and at ten when they are on. *)
Lemma deliver_sent p chain :
  fst (deliver p chain) = firstn (hop_budget p) (take_while (allowed p) chain).
Proof.
  unfold deliver, hop_budget. destruct chain as [|h0 rest]; cbn [take_while].
  - rewrite firstn_nil. reflexivity.
  - rewrite (hop_step p h0 _ (fun v => ([], OStopped v))).
    destruct (allowed p h0); [|rewrite firstn_nil; reflexivity].
    pose proof (follow_sent p rest 1) as H. destruct (follow p 1 rest) as [s o]. cbn [fst] in *.
    rewrite H. destruct (p_redirects p); reflexivity.
Qed.

(** Position [i] of [firstn n (take_while f l)] holds what [l] holds there, provided [i < n] and
    [f] accepts everything up to and including position [i]. *)
Lemma nth_error_firstn_take_while {A} (f : A -> bool) l : forall n i x,
  nth_error (firstn n (take_while f l)) i = Some x <->
  i < n /\ nth_error l i = Some x /\
  forall j, j <= i -> exists y, nth_error l j = Some y /\ f y = true.
Proof.
  induction l as [|a t IH]; intros n i x; cbn [take_while].
  - rewrite firstn_nil. split; [|intros (_ & H & _)]; destruct i; discriminate.
  - destruct (f a) eqn:Ea.
    + destruct n; cbn [firstn]; [split; [destruct i; discriminate | lia]|].
      destruct i as [|i]; cbn [nth_error].
      * split; [|tauto]. intros H. repeat split; [lia | exact H|].
        intros j Hj. assert (j = 0) by lia. subst. exists a. split; [reflexivity | exact Ea].
      * rewrite IH. split; intros (Hi & Hx & Hall); (repeat split; [lia | exact Hx|]).
        -- intros [|j] Hj; [exists a; split; [reflexivity | exact Ea] | apply Hall; lia].
        -- intros j Hj. apply (Hall (S j)). lia.
    + rewrite firstn_nil. split; [destruct i; discriminate|]. intros (_ & _ & Hall).
      destruct (Hall 0 ltac:(lia)) as [y [[= <-] Hy]]. congruence.
Qed.

(** A request goes out to hop [i] only if hops 0..i all passed the policy check. *)
Lemma no_send_when_denied p chain i h :
  nth_error (fst (deliver p chain)) i = Some h ->
  nth_error chain i = Some h /\
  forall j, j <= i -> exists hj, nth_error chain j = Some hj /\ check p hj = Allow.
Proof.
  rewrite deliver_sent, nth_error_firstn_take_while. intros (_ & H1 & H2). split; [exact H1|].
  intros j Hj. destruct (H2 j Hj) as [y [Hy1 Hy2]]. exists y. split; [exact Hy1 | apply allowed_true; exact Hy2].
Qed.

Lemma sent_length p chain : length (fst (deliver p chain)) <= hop_budget p.
Proof. rewrite deliver_sent. apply firstn_le_length. Qed.

Lemma redirects_off p chain : p_redirects p = false ->
  length (fst (deliver p chain)) <= 1 /\ forall i, 1 <= i -> nth_error (fst (deliver p chain)) i = None.
Proof.
  intros Hr. pose proof (sent_length p chain) as H. unfold hop_budget in H. rewrite Hr in H.
  split; [exact H|]. intros i Hi. apply nth_error_None. lia.
Qed.

(** every allowed hop within the budget *is* contacted (the policy refuses nothing it allows) *)
Lemma allowed_prefix_sent p chain i :
  i < hop_budget p ->
  (forall j, j <= i -> exists hj, nth_error chain j = Some hj /\ check p hj = Allow) ->
  exists h, nth_error chain i = Some h /\ nth_error (fst (deliver p chain)) i = Some h.
Proof.
  intros Hi Hall. destruct (Hall i (le_n i)) as [h [Hh _]]. exists h. split; [exact Hh|].
  rewrite deliver_sent. apply nth_error_firstn_take_while. repeat split; [exact Hi | exact Hh|].
  intros j Hj. destruct (Hall j Hj) as [y [Hy Hc]]. exists y. split; [exact Hy | apply allowed_true; exact Hc].
Qed.

(** The outcome: a refusal names the first hop that is not allowed, and that hop was not contacted. *)
Lemma follow_stopped p : forall rest n v,
  snd (follow p n rest) = OStopped v ->
  v <> Allow /\ exists h, nth_error rest (length (fst (follow p n rest))) = Some h /\ check p h = v.
Proof.
  induction rest as [|nxt rest IH]; intros n v; cbn [follow].
  - discriminate.
  - destruct (p_redirects p); cbn [negb]; [|discriminate].
    destruct (Nat.leb max_requests n); [discriminate|].
    rewrite (hop_step p nxt _ (fun v => ([], OStopped v))). destruct (allowed p nxt) eqn:Ea.
    + specialize (IH (S n) v). destruct (follow p (S n) rest) as [s o]. exact IH.
    + intros [= <-]. rewrite <- allowed_true, Ea. split; [discriminate|]. exists nxt. split; reflexivity.
Qed.

(** push.go: a policy denial is dead-lettered as policy_denied at once, whatever the attempt
    number and the retry budget. *)
Lemma denied_is_dead_unretried why status attempt max :
  classify (result_of (OStopped (Deny why)) status) attempt max = LMarkDead DPolicyDenied.
Proof. reflexivity. Qed.

Lemma classify_policy_denied r attempt max :
  classify r attempt max = LMarkDead DPolicyDenied <-> r = ResPolicyDenied.
Proof.
  unfold classify. destruct r as [c| |].
  - destruct (is_success _); [split; discriminate|].
    destruct (_ && _); [split; discriminate|]. destruct (should_retry _); split; discriminate.
  - split; reflexivity.
  - cbn. destruct (attempt <=? max)%Z; split; discriminate.
Qed.

Lemma result_of_policy_denied o status :
  result_of o status = ResPolicyDenied <-> exists why, o = OStopped (Deny why).
Proof.
  split; [|intros [why ->]; reflexivity].
  destruct o as [|[|why|]|]; try discriminate. intros _. exists why. reflexivity.
Qed.

(** Non-vacuity: concrete policies, hops and chains that meet the hypotheses. *)

Definition ip4 (a b c d : N) : ip := {| ip_fam := F4; ip_val := quad a b c d |}.
Definition mk_hop (scheme host : string) (lit : option ip) (ans : list ip) : hop :=
  {| h_scheme := scheme; h_hostname := host; h_literal := lit; h_dns := DnsOk (map Some ans) |}.
Definition cidr_rule (f : fam) (a bits : N) : rule :=
  {| r_is_cidr := true; r_host := ""; r_sub := false; r_px := {| px_fam := f; px_addr := a; px_bits := bits |} |}.
Definition default_policy : policy :=
  {| p_https_only := true; p_redirects := false; p_rebind := true; p_allow := []; p_deny := [] |}.
Definition open_policy (allow deny : list rule) : policy :=
  {| p_https_only := false; p_redirects := true; p_rebind := true; p_allow := allow; p_deny := deny |}.

Example ex_public_allowed :
  check default_policy (mk_hop "https" "Example.COM." None [ip4 93 184 216 34]) = Allow.
Proof. vm_compute. reflexivity. Qed.

Example ex_private_answer_denied :
  check default_policy (mk_hop "https" "example.com" None [ip4 93 184 216 34; ip4 10 0 0 7]) = Deny RDisallowedIP.
Proof. vm_compute. reflexivity. Qed.

Example ex_mapped_loopback_denied :
  check default_policy (mk_hop "https" "::ffff:127.0.0.1" (Some {| ip_fam := F6; ip_val := mapped_lo + quad 127 0 0 1 |}) []) = Deny RDisallowedIP.
Proof. vm_compute. reflexivity. Qed.

Example ex_wildcard :
  let p := open_policy [host_rule "example.com" true] [] in
  check p (mk_hop "http" "api.example.com" None [ip4 1 1 1 1]) = Allow /\
  check p (mk_hop "http" "example.com" None [ip4 1 1 1 1]) = Deny RNotAllowlisted /\
  check p (mk_hop "http" "badexample.com" None [ip4 1 1 1 1]) = Deny RNotAllowlisted.
Proof. vm_compute. repeat split. Qed.

Example ex_deny_beats_allow :
  let p := open_policy [host_rule "*" false] [cidr_rule F4 (quad 1 1 1 0) 24] in
  check p (mk_hop "http" "one.example" None [ip4 8 8 8 8; ip4 1 1 1 1]) = Deny RDenied /\
  check p (mk_hop "http" "one.example" None [ip4 8 8 8 8]) = Allow.
Proof. vm_compute. repeat split. Qed.

Example ex_chain :
  let p := open_policy [] [host_rule "evil.example" false] in
  let a := mk_hop "http" "a.example" None [ip4 1 1 1 1] in
  let e := mk_hop "http" "evil.example" None [ip4 1 1 1 2] in
  deliver p [a; a; e; a] = ([a; a], OStopped (Deny RDenied)) /\
  deliver {| p_https_only := false; p_redirects := false; p_rebind := true; p_allow := []; p_deny := [] |} [a; a; a] = ([a], OResponse) /\
  length (fst (deliver p (repeat a 15))) = 10.
Proof. vm_compute. repeat split. Qed.

Example ex_mapped_deny_rule :
  let px := {| px_fam := F6; px_addr := (mapped_lo + quad 8 8 8 8)%N; px_bits := 128 |} in
  let r := {| r_is_cidr := true; r_host := ""; r_sub := false; r_px := compile_prefix px |} in
  let pol := open_policy [] [r] in
  check pol (mk_hop "http" "::ffff:8.8.8.8" (Some {| ip_fam := F6; ip_val := (mapped_lo + quad 8 8 8 8)%N |}) []) = Deny RDenied /\
  check pol (mk_hop "http" "8.8.8.8" (Some (ip4 8 8 8 8)) []) = Deny RDenied /\
  check pol (mk_hop "http" "8.8.8.9" (Some (ip4 8 8 8 9)) []) = Allow /\
  compile_prefix {| px_fam := F6; px_addr := mapped_lo; px_bits := 95 |} = {| px_fam := F6; px_addr := mapped_lo; px_bits := 95 |}.
Proof. vm_compute. repeat split. Qed.
