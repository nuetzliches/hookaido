(** C05 - at-least-once redelivery: every unsettled message becomes visible again.
    Statements, each derived from Proofs/. *)
From Coq Require Import List ZArith NArith Bool Lia.
From HK Require Import Gen.Consts Model.Queue Model.QueueMon Proofs.QueueBase Proofs.QueueInv Proofs.QueueInvStep
  Proofs.QueueStep Proofs.QueueLease Proofs.QueueRedeliver Proofs.QueueMonSound Proofs.QueueMonC05.
Import ListNotations.
Open Scope Z_scope.

(** A dequeue returns exactly min(batch', ready) items, batch' = batch clamped to 1..cap, "ready"
    counted in the state after pruning and the release of expired leases. *)
Theorem C05_dequeue_count : forall fl c now route target batch ttl o s s' items,
  Inv s -> step_dequeue fl c now route target batch ttl o s = (s', RItems items) ->
  Z.of_nat (length items) =
  Z.min (clamp_batch batch) (Z.of_nat (length (filter (ready now route target) (msgs (deq_pre fl c now o s)))))
  /\ 1 <= clamp_batch batch <= mem_dequeue_batch_cap.
Proof.
  intros fl c now route target batch ttl o s s' items I H.
  split; [exact (proj1 (proj2 (proj2 (dequeue_sound fl c now route target batch ttl o s s' items I H)))) | exact (clamp_batch_range batch)].
Qed.

(** hence no ready message is starved while capacity is requested: when the clamped batch covers the
    ready messages of the route/target, every one of them is returned *)
Theorem C05_all_ready_returned_when_capacity : forall fl c now route target batch ttl o s s' items m,
  Inv s -> step_dequeue fl c now route target batch ttl o s = (s', RItems items) ->
  let s2 := deq_pre fl c now o s in
  Z.of_nat (length (filter (ready now route target) (msgs s2))) <= clamp_batch batch ->
  In m (msgs s2) -> ready now route target m = true ->
  In (m_id m) (map (fun it => fst (fst (fst it))) items).
Proof.
  intros fl c now route target batch ttl o s s' items m I H s2 Hcap Hm Hr.
  destruct (dequeue_sound fl c now route target batch ttl o s s' items I H) as [A [_ [Len Hall]]]. fold s2 in Len, Hall.
  (* the returned ids are distinct, all of them ready, and no fewer than the ready ones: they are all of them *)
  apply (@NoDup_length_incl N _ (ids (filter (ready now route target) (msgs s2))) A).
  - unfold ids. rewrite !map_length. lia.
  - intros i Hi. apply in_map_iff in Hi. destruct Hi as [[[[i0 l0] a0] u0] [<- Hit]].
    destruct (Hall _ _ _ _ Hit) as [m0 [F [R _]]]. apply find_id_Some in F. destruct F as [Hin <-].
    cbn [fst]. apply in_map, filter_In. split; assumption.
  - apply in_map, filter_In. split; assumption.
Qed.

(** nack with delay d: offered from now + max(d,0), not earlier ... *)
Theorem C05_nack_schedule : forall c now d m m',
  lease_effect c now (KNack d) m = Some m' -> m_st m' = Queued /\ m_next m' = now + Z.max d 0 /\ m_lease m' = None.
Proof. intros c now d m m' H. inversion H; subst. repeat split. Qed.

(** ... because only due messages are ready, and nothing ever moves next_run_at into the past. *)
Theorem C05_ready_is_due : forall now route target m, ready now route target m = true -> m_st m = Queued /\ m_next m <= now.
Proof. intros now route target m. apply ready_st. Qed.

Theorem C05_next_run_never_set_into_past : forall c x r m m',
  change c x r m m' -> m_next m' = m_next m \/ op_now x <= m_next m'.
Proof.
  intros c x r m m' H.
  destruct H as [E | _ _ _ E | route target b ttl lid m0 _ _ _ _ _ E | k lid _ _ _ _ Hu _ Hne E | k _ _ _ E].
  - subst. left. reflexivity.
  - subst. right. simpl. lia.
  - subst. right. simpl. pose proof (eff_ttl_pos ttl). lia.
  - right. unfold lease_effect in E. destruct k.
    + destruct (0 <? c_deliv_age c); inversion E; subst; simpl; lia.
    + inversion E; subst; simpl; lia.
    + inversion E; subst; simpl. unfold is_noop_extend in Hne. apply Z.leb_gt in Hne. lia.
    + inversion E; subst; simpl; lia.
  - right. unfold manage_effect in E. destruct k; inversion E; subst; simpl; lia.
Qed.

(** An expired lease is visible to the very next dequeue on the memory backend, and on SQLite
    whenever that dequeue sweeps; the message is then ready for every matching filter. *)
Theorem C05_expiry_visible : forall fl c now o s m,
  Inv s -> In m (msgs s) -> expired now m = true ->
  (fl = Mem \/ sql_sweep_due now (last_sweep s) = true) ->
  find_id (m_id m) (msgs (deq_pre fl c now o s)) = Some (release now m)
  /\ forall route target, opt_match route (m_route m) = true -> opt_match target (m_target m) = true ->
                          ready now route target (release now m) = true.
Proof. exact expiry_visible. Qed.

(** SQLite: along every history whose clock does not run backwards, every live lease ends after the
    last sweep; hence a dequeue at least one sweep interval (10 ms, from the source) after the expiry
    sweeps and offers the message: the bounded delay the statement grants. *)
Theorem C05_sql_swept_invariant : forall c xs,
  monotone_from 0 xs -> swept (snd (run Sql c init xs)) (last_time 0 xs).
Proof. intros c xs M. exact (swept_along_monotone_histories c init 0 xs inv_init swept_init M). Qed.

Theorem C05_sql_expiry_bounded_delay : forall c s t now o m,
  Inv s -> swept s t -> t <= now -> In m (msgs s) -> is_leased m = true ->
  m_until m <= now - sql_sweep_interval_ns ->
  sql_sweep_due now (last_sweep s) = true
  /\ find_id (m_id m) (msgs (deq_pre Sql c now o s)) = Some (release now m).
Proof.
  intros c s t now o m I [S0 [S1 S2]] Ht Hm L Hu.
  assert (Due : sql_sweep_due now (last_sweep s) = true).
  { unfold sql_sweep_due. apply negb_true_iff. apply Z.ltb_ge. specialize (S2 m Hm L). lia. }
  split; [exact Due|].
  apply expiry_visible; auto. unfold expired. rewrite L. simpl. apply Z.leb_le.
  unfold sql_sweep_interval_ns in Hu. lia.
Qed.

(** a process restart resets the sweep throttle: the first dequeue after it sweeps (now >= 10 ms) *)
Theorem C05_restart_sweeps : forall c s now, sql_sweep_interval_ns <= now ->
  sql_sweep_due now (last_sweep (fst (step Sql c s (Reopen now) (mkOracle [] [] [] [])))) = true.
Proof.
  intros c s now H. cbn [step fst last_sweep]. unfold sql_sweep_due. apply Bool.negb_true_iff. apply Z.ltb_ge.
  rewrite Z.sub_0_r. exact H.
Qed.

Example C05_witness :
  let e := mkEnq (Some 7%N) 1%N 1%N None None 5%N 0%N 0%N in
  let o0 := mkOracle [] [] [] [] in
  map ev_res (model_trace Mem (mkCfg 0 false 0 0 0 0 0 0)
     [(Enqueue 100 e, o0);
      (Dequeue 200 None None 1 1000, mkOracle [(7%N, 1%N)] [] [] []);
      (LeaseOp 300 (KNack 500) (LKnown 1%N false), o0);
      (Dequeue 799 None None 1 1000, o0);                                (* not before now + d *)
      (Dequeue 800 None None 1 1000, mkOracle [(7%N, 2%N)] [] [] []);    (* from now + d on *)
      (Dequeue 1800 None None 1 1000, mkOracle [(7%N, 3%N)] [] [] [])])  (* lease expired: offered again *)
  = [RUnit; RItems [(7%N, 1%N, 1, 1200)]; RUnit; RItems []; RItems [(7%N, 2%N, 2, 1800)]; RItems [(7%N, 3%N, 3, 2800)]].
Proof. vm_compute. reflexivity. Qed.

(** The executable monitor, per event.  [sweep_ok] is what the SQLite sweep throttle needs: this dequeue
    sweeps, or no lease has been expired for a whole sweep interval. *)
Theorem C05_monitor_holds_on_every_step : forall fl c s x o s' r,
  Inv s -> sweep_ok fl (op_now x) s -> step fl c s x o = (s', r) -> r <> RBadOracle ->
  c05_event (mkEvent x o r (msgs s) (msgs s')) = true.
Proof.
  intros fl c s x o s' r Hi Hsw H Hr. destruct x; try reflexivity. cbn [step op_now] in *.
  destruct (dequeue_answers _ _ _ _ _ _ _ _ _ _ _ H) as [E | [items E]]; [contradiction | subst r].
  exact (c05_dequeue fl c _ _ _ _ _ o s s' items Hi Hsw H).
Qed.

(** The executable monitor [P_C05] - what the correspondence check evaluates on traces of the Go stores -
    holds on every trace of the model whose dequeue answers were accepted as valid choices: at every
    dequeue, min(batch, must-offer) <= returned <= min(batch, may-offer), and only due or expired
    messages are returned.  must-offer counts queued-and-due messages plus leases expired for at least
    one SQLite sweep interval; may-offer counts every expired lease.  For the SQLite flavour the clock
    must not run backwards (its sweep throttle compares clock readings): then [swept] is an invariant of
    the history and gives [sweep_ok] at every step. *)
Theorem C05_monitor_holds_on_every_model_trace : forall fl c xs,
  (fl = Sql -> monotone_from 0 xs) ->
  Forall (fun e => ev_res e <> RBadOracle) (model_trace fl c xs) -> P_C05 fl c (model_trace fl c xs) = true.
Proof.
  intros fl c xs Hm H.
  apply (mon_all_on_run fl c _ (fun s _ xs => fl = Sql -> exists t, swept s t /\ monotone_from t xs)
                        (fun e => ev_res e <> RBadOracle)); [| exact inv_init | | exact H].
  - intros s iss x o tl s' r Hi Hsw Es e. split.
    + intros E. subst fl. destruct (Hsw eq_refl) as [t [S [M1 M2]]]. exists (op_now x). split; [|exact M2].
      pose proof (step_swept c s x o t Hi S M1) as S'. rewrite Es in S'. exact S'.
    + intros Hr ins. apply (C05_monitor_holds_on_every_step fl c s x o s' r Hi); [| exact Es | exact Hr].
      destruct fl; [exact I|]. destruct (Hsw eq_refl) as [t [S [M _]]]. exact (swept_sweep_ok s t _ S M).
  - intros E. exists 0. split; [apply swept_init | exact (Hm E)].
Qed.

Print Assumptions C05_dequeue_count.
Print Assumptions C05_all_ready_returned_when_capacity.
Print Assumptions C05_nack_schedule.
Print Assumptions C05_next_run_never_set_into_past.
Print Assumptions C05_expiry_visible.
Print Assumptions C05_sql_swept_invariant.
Print Assumptions C05_sql_expiry_bounded_delay.
Print Assumptions C05_restart_sweeps.
Print Assumptions C05_monitor_holds_on_every_model_trace.
Print Assumptions C05_monitor_holds_on_every_step.
