(** Replay protection over histories (Model/HmacHistory.v, C09).  The invariant [remembered] - an accepted (nonce, key) is in
    the cache until its window has closed - is carried along every history; from it [no_double_accept], [replay_never_twice]
    and the concurrent and reload variants. *)
From Coq Require Import ZArith List Bool NArith Lia.
From HK Require Import Model.NonceCache Model.Hmac Model.ReloadAuth Model.HmacHistory
  Proofs.NonceCacheProofs Proofs.HmacProofs.
Import ListNotations.
Open Scope Z_scope.

Section Crypto.
Variable sha256 : bytes -> bytes.
Variable hmac : bytes -> bytes -> bytes.

Notation verify := (verify sha256 hmac).
Notation step := (step sha256 hmac).
Notation run := (run sha256 hmac).
Notation results := (results sha256 hmac).
Notation checkpoints := (checkpoints sha256 hmac).

(** The invariant: nonce [n], honoured for a request signed at instant [t1], is still remembered
    by the authenticator the path has now - or by the retired one while the path has none - with
    an expiry that covers the request's window under the tolerance that authenticator carries. *)
Definition remembered (s : pstate) (n : bytes) (t1 : Z) : Prop :=
  exists a e, prev_of s = Some a /\ lookup n (a_cache a) = Some e /\ t1 + h_tol (a_cfg a) <= e.

Lemma run_app s h1 h2 : run s (h1 ++ h2) = run (run s h1) h2.
Proof. revert s. induction h1 as [|e tl IH]; intros s; simpl; [reflexivity | apply IH]. Qed.

Lemma checkpoints_app s h1 h2 : checkpoints s (h1 ++ h2) = checkpoints s h1 ++ checkpoints (run s h1) h2.
Proof.
  revert s. induction h1 as [|e tl IH]; intros s; simpl; [reflexivity|].
  destruct e as [now r|new]; [destruct (p_active s)|]; simpl; rewrite IH; reflexivity.
Qed.

Lemma admit_of_some s now r n t :
  admit_of s now r = Some (n, t) ->
  exists a, p_active s = Some a /\
    fst (cache_admit n t (h_tol (a_cfg a)) now (a_cache a)) = true /\
    snd (verify (a_cfg a) (a_cache a) now r) = snd (cache_admit n t (h_tol (a_cfg a)) now (a_cache a)).
Proof.
  unfold admit_of, admitted. destruct (p_active s) as [a|]; [|discriminate].
  intros H. exists a. split; [reflexivity|]. revert H. rewrite verify_cache.
  destruct (no_secrets_configured (a_cfg a)); [discriminate|].
  destruct (verify_pre (a_cfg a) r) as [[[[sg tt] nn] ts]|]; [|discriminate].
  destruct (fst (cache_admit nn (ts * sec) (h_tol (a_cfg a)) now (a_cache a))) eqn:AD; [|discriminate].
  intros H. injection H as <- <-. auto.
Qed.

(** the nonce and the signed instant are read off the request by the configuration alone *)
Lemma admitted_same cfg c c' now now' r x y :
  admitted cfg c now r = Some x -> admitted cfg c' now' r = Some y -> x = y.
Proof.
  unfold admitted. destruct (no_secrets_configured cfg); [discriminate|].
  destruct (verify_pre cfg r) as [[[[sg tt] nn] ts]|]; [|discriminate].
  destruct (fst (cache_admit nn _ _ now c)), (fst (cache_admit nn _ _ now' c')); congruence.
Qed.

Lemma step_req s now r a :
  p_active s = Some a ->
  fst (step s (EReq now r)) =
  {| p_active := Some {| a_cfg := a_cfg a; a_cache := snd (verify (a_cfg a) (a_cache a) now r) |};
     p_retired := p_retired s |}.
Proof. intros A. simpl. rewrite A. destruct (verify (a_cfg a) (a_cache a) now r). reflexivity. Qed.

Lemma step_req_idle s now r : p_active s = None -> fst (step s (EReq now r)) = s.
Proof. intros A. simpl. rewrite A. reflexivity. Qed.

Lemma admitted_remembered s now r n t1 :
  admit_of s now r = Some (n, t1) -> remembered (fst (step s (EReq now r))) n t1.
Proof.
  intros H. destruct (admit_of_some _ _ _ _ _ H) as (a & A & AD & C).
  rewrite (step_req _ _ _ _ A). eexists; exists (t1 + h_tol (a_cfg a)).
  split; [reflexivity|]. cbn [a_cfg a_cache]. split; [|lia].
  rewrite C. apply (admit_true _ _ _ _ _ AD).
Qed.

(** one event: the invariant is kept, unless the event is a request whose reading lies beyond
    the remembered window under the tolerance then in force *)
Lemma step_remembered s e n t1 :
  remembered s n t1 ->
  remembered (fst (step s e)) n t1 \/
  (exists now r a, e = EReq now r /\ p_active s = Some a /\ t1 + h_tol (a_cfg a) < now).
Proof.
  intros (a & x & Hp & Hl & Hx). unfold prev_of in Hp. destruct e as [now r|[cfg|]].
  - destruct (p_active s) as [a'|] eqn:A.
    + injection Hp as ->. destruct (Z.lt_ge_cases x now) as [Hlt|Hge].
      * right. exists now, r, a. repeat split. lia.
      * (* the entry is live at [now]: whatever Verify does with the request, it stays *)
        left. rewrite (step_req _ _ _ _ A). eexists; exists x.
        split; [reflexivity|]. cbn [a_cfg a_cache]. split; [|exact Hx].
        rewrite verify_cache. destruct (no_secrets_configured (a_cfg a)); [exact Hl|].
        destruct (verify_pre (a_cfg a) r) as [[[[sg tt] nn] ts]|]; [|exact Hl].
        apply admit_keeps; assumption.
    + left. rewrite (step_req_idle _ _ _ A). exists a, x. unfold prev_of. rewrite A. auto.
  - (* the new authenticator inherits the cache, expiries grown with the tolerance *)
    left. destruct (inherit_keeps n x (h_tol (a_cfg a)) (a_cache a) (h_tol cfg) t1 Hl Hx) as (e' & L' & G').
    eexists; exists e'. split; [reflexivity|]. cbn [a_cfg a_cache]. unfold prev_of. rewrite Hp. auto.
  - left. exists a, x. auto.
Qed.

Lemma remembered_refuses s n t1 now r t2 :
  remembered s n t1 -> admit_of s now r = Some (n, t2) ->
  exists a, p_active s = Some a /\ t1 + h_tol (a_cfg a) < now.
Proof.
  intros (a' & x & Hp & Hl & Hx) H.
  destruct (admit_of_some _ _ _ _ _ H) as (a & A & AD & _).
  unfold prev_of in Hp. rewrite A in Hp. injection Hp as <-.
  exists a. split; [exact A|].
  pose proof (admit_true _ _ _ _ _ AD) as (_ & _ & _ & Hlive). specialize (Hlive x Hl). lia.
Qed.

(** * no_double_accept, general form (no assumption on the clock, on tolerances, on reloads):
    between two admissions of one nonce there is a request - possibly the second one itself -
    whose clock reading lay beyond the first request's window under the tolerance then in force. *)
Theorem window_closed_between s n t1 h now2 r2 t2 :
  remembered s n t1 ->
  admit_of (run s h) now2 r2 = Some (n, t2) ->
  exists k tolk, In (k, tolk) (checkpoints s (h ++ [EReq now2 r2])) /\ t1 + tolk < k.
Proof.
  revert s. induction h as [|e tl IH]; intros s R A.
  - simpl in *. destruct (remembered_refuses _ _ _ _ _ _ R A) as (a & Ha & Hlt).
    rewrite Ha. exists now2, (h_tol (a_cfg a)). split; [left; reflexivity | exact Hlt].
  - simpl in A. destruct (step_remembered s e n t1 R) as [R'|(now & r & a & -> & Ha & Hlt)].
    + destruct (IH _ R' A) as (k & tolk & Hin & Hk). exists k, tolk. split; [|exact Hk].
      simpl. destruct e as [now r|new]; [destruct (p_active s)|]; simpl; auto.
    + exists now, (h_tol (a_cfg a)). split; [|exact Hlt]. simpl. rewrite Ha. left. reflexivity.
Qed.

(** last clock reading of a history ([T] if it has no request) *)
Fixpoint last_clock (T : Z) (h : list event) : Z :=
  match h with
  | [] => T
  | EReq now _ :: tl => last_clock now tl
  | EReload _ :: tl => last_clock T tl
  end.

Lemma clock_mono_app T h1 h2 : clock_mono T (h1 ++ h2) <-> clock_mono T h1 /\ clock_mono (last_clock T h1) h2.
Proof.
  revert T. induction h1 as [|e tl IH]; intros T; simpl; [tauto|].
  destruct e as [now r|new]; rewrite IH; tauto.
Qed.

Lemma last_clock_snoc T h now r : last_clock T (h ++ [EReq now r]) = now.
Proof. revert T. induction h as [|e tl IH]; intros T; simpl; [reflexivity|]. destruct e; apply IH. Qed.

Lemma last_clock_ge T h : clock_mono T h -> T <= last_clock T h.
Proof.
  revert T. induction h as [|e tl IH]; intros T M; simpl in *; [lia|].
  destruct e as [now r|new]; [destruct M as [M1 M2]; specialize (IH _ M2); lia | apply IH; exact M].
Qed.

Lemma checkpoints_between T s h k tolk :
  clock_mono T h -> In (k, tolk) (checkpoints s h) -> T <= k <= last_clock T h.
Proof.
  revert T s. induction h as [|e tl IH]; intros T s M Hin; simpl in *; [tauto|].
  destruct e as [now r|new]; [|eapply IH; eauto].
  destruct M as [M1 M2].
  assert (Hin' : (k, tolk) = (now, tolk) \/ In (k, tolk) (checkpoints (fst (step s (EReq now r))) tl)).
  { destruct (p_active s); [destruct Hin as [E|Hin]; [left; congruence | right; exact Hin] | right; exact Hin]. }
  destruct Hin' as [E|Hin'].
  - injection E as ->. split; [exact M1 | apply last_clock_ge; exact M2].
  - specialize (IH _ _ M2 Hin'). lia.
Qed.

Lemma checkpoints_le T s h k tolk :
  clock_mono T h -> In (k, tolk) (checkpoints s h) -> T <= k.
Proof. intros M Hin. apply (checkpoints_between T s h k tolk M Hin). Qed.

(** * no_double_accept (Properties/C09.v says what it claims): under a monotone clock the reading
    that [window_closed_between] finds beyond the window is not after the second admission's. *)
Theorem no_double_accept s1 now1 r1 n t1 h now2 r2 t2 tol2 :
  admit_of s1 now1 r1 = Some (n, t1) ->
  let s1' := fst (step s1 (EReq now1 r1)) in
  admit_of (run s1' h) now2 r2 = Some (n, t2) ->
  clock_mono now1 (h ++ [EReq now2 r2]) ->
  (forall k tolk, In (k, tolk) (checkpoints s1' (h ++ [EReq now2 r2])) -> tol2 <= tolk) ->
  t1 + tol2 < now2.
Proof.
  intros A1 s1' A2 M Htol.
  pose proof (admitted_remembered _ _ _ _ _ A1) as R.
  destruct (window_closed_between _ _ _ _ _ _ _ R A2) as (k & tolk & Hin & Hk).
  pose proof (Htol _ _ Hin) as Hle.
  pose proof (checkpoints_between _ _ _ _ _ M Hin) as [_ Hlast].
  rewrite last_clock_snoc in Hlast. lia.
Qed.

(** every tolerance in force along [h] from [s] (at requests) is [tol] *)
Definition tol_is (tol : Z) (s : pstate) (h : list event) : Prop :=
  forall k tolk, In (k, tolk) (checkpoints s h) -> tolk = tol.

(** * replay_never_twice: a replay carries the same signed instant, so it would have to pass the
    window test and, by [no_double_accept], lie beyond that very window. *)
Theorem replay_never_twice s1 now1 r1 n t h now2 r2 :
  admit_of s1 now1 r1 = Some (n, t) ->
  let s1' := fst (step s1 (EReq now1 r1)) in
  clock_mono now1 (h ++ [EReq now2 r2]) ->
  (forall a, p_active (run s1' h) = Some a -> 0 < h_tol (a_cfg a) /\
     forall k tolk, In (k, tolk) (checkpoints s1' h) -> h_tol (a_cfg a) <= tolk) ->
  admit_of (run s1' h) now2 r2 <> Some (n, t).
Proof.
  intros A1 s1' M Htol A2.
  destruct (admit_of_some _ _ _ _ _ A2) as (a & Ha & AD & _).
  pose proof (admit_true _ _ _ _ _ AD) as (_ & Hw & _).
  destruct (Htol a Ha) as [Hpos Hle].
  (* the replay passed the window test of [a], yet lies beyond the first request's window *)
  assert (X : t + h_tol (a_cfg a) < now2); [|lia].
  apply (no_double_accept s1 now1 r1 n t h now2 r2 t (h_tol (a_cfg a)) A1 A2 M).
  intros k tolk Hin. fold s1' in Hin. rewrite checkpoints_app in Hin. apply in_app_or in Hin.
  destruct Hin as [Hin|Hin]; [apply (Hle _ _ Hin)|].
  cbn [HmacHistory.checkpoints] in Hin. rewrite Ha in Hin. destruct Hin as [E|[]]. injection E as _ <-. lia.
Qed.

Theorem reload_keeps_nonces s n t1 (reloads : list (option hmac_cfg)) :
  remembered s n t1 -> remembered (run s (map EReload reloads)) n t1.
Proof.
  revert s. induction reloads as [|new tl IH]; intros s R; simpl; [exact R|].
  apply IH. destruct (step_remembered s (EReload new) n t1 R) as [R'|(now & r & a & E & _)]; [exact R' | discriminate].
Qed.

(** * concurrent_duplicates: k copies of one request served concurrently.  Each is one atomic step
    (clock reading + tolerance + cache under the mutex), so the execution is some order of them -
    with any other requests in between - with non-decreasing readings: once one copy has been
    admitted no further copy is. *)
Fixpoint only_reqs (h : list event) : Prop :=
  match h with
  | [] => True
  | EReq _ _ :: tl => only_reqs tl
  | EReload _ :: _ => False
  end.

Definition cfg_of (s : pstate) : option hmac_cfg := option_map a_cfg (p_active s).

Lemma cfg_of_some s cfg : cfg_of s = Some cfg <-> exists a, p_active s = Some a /\ a_cfg a = cfg.
Proof.
  unfold cfg_of. destruct (p_active s) as [a|]; simpl; split.
  - intros H. injection H as <-. eauto.
  - intros (a' & E & <-). congruence.
  - discriminate.
  - intros (a' & E & _). discriminate.
Qed.

Lemma step_req_cfg s now r : cfg_of (fst (step s (EReq now r))) = cfg_of s.
Proof.
  unfold cfg_of. destruct (p_active s) as [a|] eqn:A.
  - rewrite (step_req _ _ _ _ A). reflexivity.
  - rewrite (step_req_idle _ _ _ A), A. reflexivity.
Qed.

Lemma run_reqs_cfg s h : only_reqs h -> cfg_of (run s h) = cfg_of s.
Proof.
  revert s. induction h as [|e tl IH]; intros s O; simpl; [reflexivity|].
  destruct e as [now r|new]; [|contradiction]. rewrite IH by exact O. apply step_req_cfg.
Qed.

Lemma checkpoints_reqs_tol s h cfg :
  only_reqs h -> cfg_of s = Some cfg -> tol_is (h_tol cfg) s h.
Proof.
  unfold tol_is. revert s. induction h as [|e tl IH]; intros s O C k tolk Hin; simpl in *; [tauto|].
  destruct e as [now r|new]; [|contradiction].
  assert (C' : cfg_of (fst (step s (EReq now r))) = Some cfg) by (rewrite step_req_cfg; exact C).
  apply cfg_of_some in C. destruct C as (a & A & <-). rewrite A in Hin.
  destruct Hin as [E|Hin]; [congruence | eapply IH; eauto].
Qed.

Theorem concurrent_duplicates s cfg r n t now1 h now2 :
  cfg_of s = Some cfg -> 0 < h_tol cfg ->
  admit_of s now1 r = Some (n, t) ->
  let s' := fst (step s (EReq now1 r)) in
  only_reqs h -> clock_mono now1 (h ++ [EReq now2 r]) ->
  admit_of (run s' h) now2 r = None.
Proof.
  intros C Hpos A1 s' O M.
  assert (C1 : cfg_of s' = Some cfg) by (unfold s'; rewrite step_req_cfg; exact C).
  assert (C2 : cfg_of (run s' h) = Some cfg) by (rewrite run_reqs_cfg; assumption).
  destruct (admit_of (run s' h) now2 r) as [[n2 t2]|] eqn:A2; [exfalso|reflexivity].
  apply cfg_of_some in C, C2. destruct C as (a & Ha & Ea), C2 as (a2 & Ha2 & Ea2).
  assert (Same : (n2, t2) = (n, t)).
  { unfold admit_of in A1, A2. rewrite Ha, Ea in A1. rewrite Ha2, Ea2 in A2.
    exact (admitted_same _ _ _ _ _ _ _ _ A2 A1). }
  injection Same as -> ->.
  revert A2. apply (replay_never_twice s now1 r n t h now2 r A1 M).
  intros a' Ha'. fold s' in Ha'. rewrite Ha2 in Ha'. injection Ha' as <-. rewrite Ea2.
  split; [exact Hpos|]. intros k tolk Hin.
  rewrite (checkpoints_reqs_tol s' h cfg O C1 k tolk Hin). lia.
Qed.

End Crypto.

(** * A minimal route for concrete histories (they only exercise the nonce step, so they hold for
    every sha256/hmac); also used in Properties/C09.v. *)
Definition w_hdr (k v : bytes) : bytes * list bytes := (k, [v]).
Definition w_sig : bytes := [88;45;83]%N.    (* "X-S" *)
Definition w_ts : bytes := [88;45;84]%N.     (* "X-T" *)
Definition w_nonce : bytes := [88;45;78]%N.  (* "X-N" *)
Definition w_cfg (tol : Z) : hmac_cfg :=
  {| h_sig := w_sig; h_ts := w_ts; h_nonce := w_nonce; h_tol := tol; h_static := [[107]%N]; h_versions := [] |}.
Definition w_req (ts_text nonce : bytes) : hreq :=
  {| q_method := [80;79;83;84]%N; q_path := [47;104]%N;
     q_headers := [w_hdr w_sig [97;98]%N; w_hdr w_ts ts_text; w_hdr w_nonce nonce]; q_body := [] |}.

(** non-vacuity of the positive theorems: a concrete history meeting every hypothesis of
    [replay_never_twice] (first request admitted, other traffic, a reload dropping the route, a
    reload adding it back, replay inside the window) *)
Example replay_hypotheses_satisfiable :
  forall sha256 hmac,
  let tol := 300 * sec in
  let r := w_req [49;48;48;48]%N [110;49]%N in
  let other := w_req [49;48;53;48]%N [110;50]%N in
  let s1 := reload_path (Some (w_cfg tol)) p_init in
  let s1' := fst (step sha256 hmac s1 (EReq (1000 * sec) r)) in
  let h := [EReq (1010 * sec) other; EReload None; EReq (1020 * sec) r; EReload (Some (w_cfg tol))] in
  admit_of s1 (1000 * sec) r = Some ([110;49]%N, 1000 * sec) /\
  clock_mono (1000 * sec) (h ++ [EReq (1000 * sec + tol) r]) /\
  checkpoints sha256 hmac s1' h = [(1010 * sec, tol)] /\
  option_map (fun a => h_tol (a_cfg a)) (p_active (run sha256 hmac s1' h)) = Some tol /\
  admit_of (run sha256 hmac s1' h) (1000 * sec + tol) r = None.
Proof. intros sha256 hmac. vm_compute. repeat split; intros; discriminate. Qed.

(** * The inner loop of the executable predicate [P_C09], as a proposition *)
Lemma no_later_dup_spec a later :
  no_later_dup a later = true <->
  forall b, In b later -> ac_nonce a = ac_nonce b -> ac_signed a + ac_tol b < ac_now b.
Proof.
  induction later as [|x tl IH]; simpl.
  - split; [intros _ b [] | reflexivity].
  - rewrite andb_true_iff, IH, orb_true_iff, negb_true_iff, N.eqb_neq, Z.ltb_lt. split.
    + intros [[H|H] Ht] b [E|Hin] En; subst; auto; congruence.
    + intros H. split.
      * destruct (N.eq_dec (ac_nonce a) (ac_nonce x)) as [E|NE]; [right; apply H; auto | left; exact NE].
      * intros b Hin. apply H. right. exact Hin.
Qed.
