(** retryDelay (Model/Retry.v, C06): [delayQ] is [jittered] after [capped]; bounds of each stage on variables, and
    [sat_floor_window] for the truncation to int64 nanoseconds. *)
From Coq Require Import ZArith QArith Qminmax Qround Qpower Lqa Lia Bool.
From HK Require Import Model.Retry.
Open Scope Q_scope.

Lemma Qltb_true x y : Qltb x y = true <-> x < y.
Proof.
  unfold Qltb. rewrite negb_true_iff, <- not_true_iff_false, Qle_bool_iff. split.
  - apply Qnot_le_lt.
  - apply Qlt_not_le.
Qed.

Lemma Qltb_false x y : Qltb x y = false <-> y <= x.
Proof.
  unfold Qltb. rewrite negb_false_iff. apply Qle_bool_iff.
Qed.

Lemma pow2Q_pos n : 0 < pow2Q n.
Proof. unfold pow2Q. apply Qpower_0_lt. reflexivity. Qed.

Lemma pow2Q_ge1 n : (0 <= n)%Z -> 1 <= pow2Q n.
Proof. intros H. unfold pow2Q. apply Qpower_1_le; [discriminate | exact H]. Qed.

Lemma inject_Z_pos z : (0 < z)%Z -> 0 < inject_Z z.
Proof. intros H. change 0 with (inject_Z 0). rewrite <- Zlt_Qlt. exact H. Qed.

Lemma exponential_pos base n : (0 < base)%Z -> 0 < inject_Z base * pow2Q n.
Proof. intros Hb. apply Qmult_lt_0_compat; [apply inject_Z_pos; exact Hb | apply pow2Q_pos]. Qed.

(** [delayQ] works in two stages, named here so that each can be reasoned about on its own:
    the exponential capped at [cap], then the jitter applied to whatever the first stage gave. *)
Definition capped (base cap attempt : Z) : Q :=
  let d0 := inject_Z base * pow2Q (attempt - 1) in
  if (0 <? cap)%Z && Qltb (inject_Z cap) d0 then inject_Z cap else d0.

Definition jittered (d1 u j : Q) : Q :=
  if Qltb 0 j then
    let j' := if Qltb 1 j then 1 else j in
    let d2 := d1 * (1 + (u * 2 - 1) * j') in
    if Qltb d2 0 then 0 else d2
  else d1.

Lemma delayQ_stages base cap attempt u j : delayQ base cap attempt u j =
  if (base <=? 0)%Z then 0 else jittered (capped base cap attempt) u j.
Proof. reflexivity. Qed.

(** the capped exponential of the code is the property's min(base*2^(attempt-1), cap) *)
Lemma capped_is_backoff base cap attempt :
  (0 < cap)%Z -> capped base cap attempt == backoffQ base cap attempt.
Proof.
  intros Hc. unfold capped, backoffQ. cbv zeta. rewrite (proj2 (Z.ltb_lt 0 cap) Hc). cbn [andb].
  destruct (Qltb (inject_Z cap) (inject_Z base * pow2Q (attempt - 1))) eqn:E.
  - apply Qltb_true in E. symmetry. apply Q.min_r. apply Qlt_le_weak. exact E.
  - apply Qltb_false in E. symmetry. apply Q.min_l. exact E.
Qed.

Lemma capped_pos base cap attempt : (0 < base)%Z -> 0 < capped base cap attempt.
Proof.
  intros Hb. unfold capped. cbv zeta. pose proof (exponential_pos base (attempt - 1) Hb) as H0.
  destruct (Z.ltb_spec 0 cap) as [Hc|Hc]; cbn [andb]; [|exact H0].
  destruct (Qltb _ _); [apply inject_Z_pos; exact Hc | exact H0].
Qed.

Lemma jittered_nonneg d1 u j : 0 <= d1 -> 0 <= jittered d1 u j.
Proof.
  intros Hd. unfold jittered. cbv zeta. destruct (Qltb 0 j); [|exact Hd].
  destruct (Qltb _ 0) eqn:En; [apply Qle_refl | apply Qltb_false in En; exact En].
Qed.

(** a jitter of at most 1 and a draw in [0,1) scale by a factor between 1 - j and 1 + j, which is
    not negative, so the clamp at 0 does not act *)
Lemma jittered_bounds d1 u j : 0 <= d1 -> 0 <= j /\ j <= 1 -> 0 <= u /\ u < 1 ->
  d1 * (1 - j) <= jittered d1 u j /\ jittered d1 u j <= d1 * (1 + j).
Proof.
  intros Hd [Hj0 Hj1] [Hu0 Hu1]. unfold jittered. destruct (Qltb 0 j) eqn:Ej.
  - rewrite (proj2 (Qltb_false 1 j) Hj1). cbv zeta.
    assert (Hf : 1 - j <= 1 + (u * 2 - 1) * j <= 1 + j) by (split; nra).
    set (f := 1 + (u * 2 - 1) * j) in *.
    destruct (Qltb (d1 * f) 0) eqn:En; [apply Qltb_true in En|]; split; nra.
  - apply Qltb_false in Ej. assert (j == 0) by lra. split; nra.
Qed.

Lemma backoff_pos base cap attempt : (0 < base)%Z -> (0 < cap)%Z -> 0 < backoffQ base cap attempt.
Proof.
  intros Hb Hc. unfold backoffQ. apply Q.min_glb_lt; [apply exponential_pos | apply inject_Z_pos]; assumption.
Qed.

Lemma backoff_le_cap base cap attempt : backoffQ base cap attempt <= inject_Z cap.
Proof. unfold backoffQ. apply Q.le_min_r. Qed.

Lemma backoff_ge_base base cap attempt :
  (0 < base <= cap)%Z -> (1 <= attempt)%Z -> inject_Z base <= backoffQ base cap attempt.
Proof.
  intros [Hb Hc] Ha. unfold backoffQ. apply Q.min_glb.
  - pose proof (pow2Q_ge1 (attempt - 1) ltac:(lia)) as Hp. pose proof (inject_Z_pos base Hb). nra.
  - rewrite <- Zle_Qle. exact Hc.
Qed.

Lemma delay_bounds : forall (base cap attempt : Z) (u j : Q),
  0 <= j /\ j <= 1 -> (0 < base <= cap)%Z -> (1 <= attempt)%Z -> 0 <= u /\ u < 1 ->
  let d := backoffQ base cap attempt in
  d * (1 - j) <= delayQ base cap attempt u j /\ delayQ base cap attempt u j <= d * (1 + j).
Proof.
  intros base cap attempt u j Hj [Hb Hbc] _ Hu d. subst d.
  rewrite delayQ_stages, (proj2 (Z.leb_gt base 0) Hb).
  rewrite <- (capped_is_backoff base cap attempt) by lia.
  apply jittered_bounds; [apply Qlt_le_weak, capped_pos, Hb | exact Hj | exact Hu].
Qed.

Lemma delay_no_jitter : forall base cap attempt u,
  (0 < base)%Z -> (0 < cap)%Z -> delayQ base cap attempt u 0 == backoffQ base cap attempt.
Proof.
  intros base cap attempt u Hb Hc. rewrite delayQ_stages, (proj2 (Z.leb_gt base 0) Hb).
  apply capped_is_backoff. exact Hc.
Qed.

Lemma delay_nonneg : forall base cap attempt u j, 0 <= delayQ base cap attempt u j.
Proof.
  intros base cap attempt u j. rewrite delayQ_stages. destruct (Z.leb_spec base 0); [apply Qle_refl|].
  apply jittered_nonneg, Qlt_le_weak, capped_pos. assumption.
Qed.

(** the saturating truncation to int64 of a value that is not negative keeps any window around
    the value whose lower end is at most MaxInt64 *)
Lemma sat_floor_window x lo hi : lo <= x -> x <= hi -> 0 <= x -> lo <= inject_Z max_int64 ->
  (Qfloor lo <= Z.min (Qfloor x) max_int64)%Z /\
  inject_Z (Z.min (Qfloor x) max_int64) <= hi /\
  (0 <= Z.min (Qfloor x) max_int64 <= max_int64)%Z.
Proof.
  intros Hlo Hhi H0 Hm. split; [|split; [|split]].
  - apply Z.min_glb; [apply Qfloor_resp_le; exact Hlo|].
    rewrite <- (Qfloor_Z max_int64). apply Qfloor_resp_le. exact Hm.
  - eapply Qle_trans; [|exact Hhi]. eapply Qle_trans; [|apply Qfloor_le].
    rewrite <- Zle_Qle. apply Z.le_min_l.
  - apply Z.min_glb; [|discriminate]. rewrite <- (Qfloor_Z 0). apply Qfloor_resp_le. exact H0.
  - apply Z.le_min_r.
Qed.

(** non-vacuity: base 1 s, cap 30 s, attempt 3, jitter 0.2, draw 0.25: 4 s * (1 - 0.5*0.2) = 3.6 s *)
Example delay_example :
  delayQ 1000000000 30000000000 3 (1 # 4) (1 # 5) == 3600000000 /\
  backoffQ 1000000000 30000000000 3 == 4000000000 /\
  delay_ns 1000000000 30000000000 7 (3 # 4) (1 # 5) = 33000000000%Z.
Proof. vm_compute. repeat split. Qed.
