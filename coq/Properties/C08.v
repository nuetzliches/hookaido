(** C08 - ingress authentication is sound and fails closed.
    Statements, each derived from the lemmas of Proofs/ (HmacProofs, IngressProofs, AuthCompileProofs).
    Parametric in [sha256] and [hmac] (HMAC-SHA256 is what the property is stated in terms of).
    [serve rs c now r o] = ingress.Server.ServeHTTP on a request [r] that resolved to [rs], with nonce
    cache [c], HMAC clock reading [now] and oracle [o] (rate limiter, backpressure, forward-auth
    service answer, header-size test, store results); result = (status, targets enqueued, cache). *)
From Coq Require Import ZArith List Bool NArith Lia.
From HK Require Import Model.NonceCache Model.Hmac Model.BasicAuth Model.Ingress Model.AuthCompile
  Proofs.NonceCacheProofs Proofs.HmacProofs Proofs.IngressProofs Proofs.AuthCompileProofs.
Import ListNotations.
Open Scope Z_scope.

(** HMAC: Verify accepts exactly the requests with all three headers present (after trimming), a
    timestamp that parses as a 64-bit decimal integer within the tolerance of the clock reading, a
    non-empty hex signature equal to HMAC(k, ts "\n" method "\n" cleaned path "\n" hex(sha256 body))
    for a non-empty secret k valid at the signed timestamp - and whose nonce the cache admits. *)
Theorem C08_hmac_verify_spec : forall sha256 hmac cfg c now r,
  hmac_configured cfg ->
  (fst (verify sha256 hmac cfg c now r) = true <->
   hmac_valid sha256 hmac cfg now r /\
   fst (cache_admit (trim_space (header_get (h_nonce cfg) (q_headers r)))
              (match parse_int (trim_space (header_get (h_ts cfg) (q_headers r))) with Some ts => ts * sec | None => 0 end)
              (h_tol cfg) now c) = true).
Proof. exact verify_spec. Qed.

Theorem C08_hmac_sound : forall sha256 hmac cfg c now r,
  hmac_configured cfg -> fst (verify sha256 hmac cfg c now r) = true ->
  let sg := trim_space (header_get (h_sig cfg) (q_headers r)) in
  let tt := trim_space (header_get (h_ts cfg) (q_headers r)) in
  let nn := trim_space (header_get (h_nonce cfg) (q_headers r)) in
  sg <> [] /\ tt <> [] /\ nn <> [] /\
  exists ts, parse_int tt = Some ts /\
    (0 < h_tol cfg -> - h_tol cfg <= now - ts * sec <= h_tol cfg) /\
    exists got k, hex_decode sg = Some got /\ got <> [] /\
      In k (secrets_at cfg (ts * sec)) /\ k <> [] /\
      got = hmac k (string_to_sign sha256 tt (q_method r) (q_path r) (q_body r)).
Proof. exact verify_sound. Qed.

(** the secrets tried at a signed instant: versions valid at it (valid_from inclusive, valid_until
    exclusive) followed by the inline secrets; without secret_refs just the inline secrets *)
Theorem C08_secrets_valid_at : forall cfg t k,
  In k (secrets_at cfg t) <->
  In k (h_static cfg) \/
  exists v, In v (h_versions cfg) /\ v_value v = k /\ v_from v <= t /\
            match v_until v with None => True | Some u => t < u end.
Proof.
  intros cfg t k. unfold secrets_at. destruct (h_versions cfg) as [|v0 vs] eqn:HV.
  - split; [auto|]. intros [H|(v & [] & _)]. exact H.
  - rewrite <- HV. unfold select_secrets. rewrite in_app_iff, in_map_iff. split.
    + intros [(v & E & Hin)|H]; [right | left; exact H].
      apply filter_In in Hin. destruct Hin as [Hin Hv]. apply is_valid_at_spec in Hv.
      exists v. tauto.
    + intros [H|(v & Hin & E & Hv)]; [right; exact H | left].
      exists v. split; [exact E|]. apply filter_In. split; [exact Hin|].
      apply is_valid_at_spec. exact Hv.
Qed.

(** Soundness of the handler: whatever is enqueued, and every 202, passed every mechanism the route
    declares (Basic: a configured user with exactly its password; forward auth: the service answered
    2xx; HMAC: Verify accepted). *)
Theorem C08_enqueue_implies_authenticated : forall sha256 hmac rc c now r o,
  enq_of (serve sha256 hmac (RRoute rc) c now r o) <> [] ->
  (rc_basic rc <> [] -> exists u p, parse_basic (header_get authorization_name (q_headers r)) = Some (u, p)
                                    /\ lookup_user u (rc_basic rc) = Some p) /\
  (rc_forward rc = true -> exists copied, o_fwd o = F2xx copied) /\
  (forall cfg, rc_hmac rc = Some cfg -> fst (verify sha256 hmac cfg c now r) = true).
Proof.
  intros sha256 hmac rc c now r o. apply serve_elim.
  - intros st c' _ _ H. contradiction H. reflexivity.
  - intros c' A _ _. exact A.
Qed.

Theorem C08_accepted_implies_authenticated : forall sha256 hmac rc c now r o,
  bp_valid o -> status_of (serve sha256 hmac (RRoute rc) c now r o) = 202 ->
  authenticated sha256 hmac rc c now r o /\
  enq_of (serve sha256 hmac (RRoute rc) c now r o) = targets_of rc.
Proof.
  intros sha256 hmac rc c now r o BP. apply serve_elim.
  - intros st c' N _ H. contradiction (N BP H).
  - intros c' A _. pose proof (enqueue_all_spec (targets_of rc) (o_enq o)) as ES.
    destruct (enqueue_all (targets_of rc) (o_enq o)) as [ok done].
    destruct ok; [intros _ | discriminate]. split; [exact A | apply ES; reflexivity].
Qed.

Theorem C08_basic_user_in_table : forall u users p, lookup_user u users = Some p -> In (u, p) users.
Proof.
  intros u users p. induction users as [|[k v] tl IH]; simpl; [discriminate|].
  destruct (beqb u k) eqn:E; [|right; apply IH; assumption].
  apply beqb_eq in E. intros H. injection H as <-. left. congruence.
Qed.

(** Fail closed: any answer other than 202 leaves the queue untouched, except the documented fan-out
    prefix (all authentication passed; the store refused target k; targets before k are enqueued; 503). *)
Theorem C08_fail_closed : forall sha256 hmac rc c now r o,
  let res := serve sha256 hmac (RRoute rc) c now r o in
  status_of res <> 202 ->
  enq_of res = [] \/
  (status_of res = 503 /\ authenticated sha256 hmac rc c now r o /\
   exists k, enq_of res = firstn k (targets_of rc) /\ (0 < k < length (targets_of rc))%nat /\ nth k (o_enq o) true = false).
Proof. exact fail_closed. Qed.

Theorem C08_no_route_untouched : forall sha256 hmac allowed c now r o,
  let res := serve sha256 hmac (RNone allowed) c now r o in
  enq_of res = [] /\ (status_of res = 404 \/ status_of res = 405).
Proof. intros sha256 hmac allowed c now r o. split; [reflexivity|]. destruct allowed; auto. Qed.

(** Statuses: Basic failure 401; forward auth 401 -> 401, 403 -> 403, anything else (other status,
    timeout, unreachable) -> 503; HMAC failure 401; nothing enqueued in each case. *)
Theorem C08_basic_failure_401 : forall sha256 hmac rc c now r o,
  reaches_auth o -> rc_basic rc <> [] -> ~ basic_valid (rc_basic rc) (q_headers r) ->
  status_of (serve sha256 hmac (RRoute rc) c now r o) = 401 /\ enq_of (serve sha256 hmac (RRoute rc) c now r o) = [].
Proof.
  intros sha256 hmac rc c now r o [R1 R2] Hne NV.
  assert (BV : basic_verify (rc_basic rc) (q_headers r) = false).
  { apply not_true_is_false. intros BV. apply NV, basic_verify_spec; assumption. }
  unfold serve. rewrite R1, R2, BV. split; reflexivity.
Qed.

Theorem C08_forward_failure_status : forall sha256 hmac rc c now r o,
  reaches_auth o -> basic_verify (rc_basic rc) (q_headers r) = true -> body_ok rc r o ->
  rc_forward rc = true -> (forall copied, o_fwd o <> F2xx copied) ->
  enq_of (serve sha256 hmac (RRoute rc) c now r o) = [] /\
  status_of (serve sha256 hmac (RRoute rc) c now r o) =
    match o_fwd o with F401 => 401 | F403 => 403 | _ => 503 end.
Proof.
  intros sha256 hmac rc c now r o R BV B F NF.
  rewrite serve_after_body by assumption. rewrite F.
  destruct (o_fwd o); try (split; reflexivity). contradiction (NF copied eq_refl).
Qed.

Theorem C08_hmac_failure_401 : forall sha256 hmac rc c now r o cfg,
  reaches_auth o -> basic_verify (rc_basic rc) (q_headers r) = true -> body_ok rc r o ->
  (rc_forward rc = true -> exists copied, o_fwd o = F2xx copied) ->
  rc_hmac rc = Some cfg -> fst (verify sha256 hmac cfg c now r) = false ->
  status_of (serve sha256 hmac (RRoute rc) c now r o) = 401 /\ enq_of (serve sha256 hmac (RRoute rc) c now r o) = [].
Proof.
  intros sha256 hmac rc c now r o cfg R BV B FW HC HV.
  rewrite serve_after_body by assumption. rewrite HC.
  replace (if rc_forward rc then forward_status (o_fwd o) else 0) with 0.
  - destruct (verify sha256 hmac cfg c now r) as [hok c1]. cbn [fst] in HV. subst hok.
    split; reflexivity.
  - destruct (rc_forward rc); [|reflexivity]. destruct FW as [copied ->]; reflexivity.
Qed.

(** Tampering: two accepted requests presenting the same signature bytes either agree on timestamp
    text, method, cleaned path and SHA-256 of the body, or exhibit an HMAC collision (one tag for two
    different messages).  With [string_to_sign_inj]: the signature binds all four fields. *)
Theorem C08_tamper_needs_collision : forall sha256 hmac cfg c c' now now' r r',
  hmac_configured cfg ->
  (forall x, Forall (fun y => (y < 256)%N) (sha256 x)) ->
  ~ In 10%N (q_method r) -> ~ In 10%N (q_method r') ->
  fst (verify sha256 hmac cfg c now r) = true -> fst (verify sha256 hmac cfg c' now' r') = true ->
  hex_decode (trim_space (header_get (h_sig cfg) (q_headers r))) =
  hex_decode (trim_space (header_get (h_sig cfg) (q_headers r'))) ->
  (trim_space (header_get (h_ts cfg) (q_headers r)) = trim_space (header_get (h_ts cfg) (q_headers r')) /\
   q_method r = q_method r' /\ q_path r = q_path r' /\ sha256 (q_body r) = sha256 (q_body r'))
  \/ exists k k' s s', k <> [] /\ k' <> [] /\ s <> s' /\ hmac k s = hmac k' s'.
Proof.
  intros sha256 hmac cfg c c' now now' r r' Hc Hsha Hm Hm' V V' HS.
  apply verify_sound in V, V'; try exact Hc.
  destruct V as (_ & _ & _ & ts & PI & _ & got & k & HD & _ & _ & Hk & He).
  destruct V' as (_ & _ & _ & ts' & PI' & _ & got' & k' & HD' & _ & _ & Hk' & He').
  rewrite HD, HD' in HS. injection HS as HS.
  set (s := string_to_sign _ _ (q_method r) _ _) in He.
  set (s' := string_to_sign _ _ (q_method r') _ _) in He'.
  destruct (bytes_eq_dec s s') as [E|NE].
  - left. apply string_to_sign_inj in E; auto; eapply parse_int_no_nl; eassumption.
  - right. exists k, k', s, s'. repeat split; auto. congruence.
Qed.

Theorem C08_string_to_sign_inj : forall sha256 ts m p b ts' m' p' b',
  ~ In 10%N ts -> ~ In 10%N ts' -> ~ In 10%N m -> ~ In 10%N m' ->
  (forall x, Forall (fun y => (y < 256)%N) (sha256 x)) ->
  string_to_sign sha256 ts m p b = string_to_sign sha256 ts' m' p' b' ->
  ts = ts' /\ m = m' /\ p = p' /\ sha256 b = sha256 b'.
Proof. exact string_to_sign_inj. Qed.

(** the relevant Compile rules (small model, Model/AuthCompile.v): an accepted route has no empty
    secret, pairwise distinct (case-insensitive) HMAC header names, a positive tolerance, no mix of
    mechanisms, non-empty unique Basic users *)
Theorem C08_compile_auth_rules : forall known ra,
  compile_auth known ra = true ->
  (forall s k, In (s, k) (ra_secrets ra) -> s <> []) /\
  (let sg := effective (ra_sig ra) default_sig in
   let ts := effective (ra_ts ra) default_ts in
   let nn := effective (ra_nonce ra) default_nonce in
   fold_eq sg ts = false /\ fold_eq sg nn = false /\ fold_eq ts nn = false) /\
  (forall d, ra_tol ra = Some d -> exists v, d = Some v /\ 0 < v) /\
  (ra_basic ra <> [] -> ra_secrets ra = [] /\ has_hmac_options ra = false) /\
  (ra_forward ra = true -> ra_basic ra = [] /\ ra_secrets ra = [] /\ has_hmac_options ra = false) /\
  (forall u p, In (u, p) (ra_basic ra) -> u <> [] /\ p <> []) /\
  NoDup (map fst (ra_basic ra)).
Proof. exact compile_auth_rules. Qed.

Print Assumptions C08_hmac_verify_spec.
Print Assumptions C08_hmac_sound.
Print Assumptions C08_secrets_valid_at.
Print Assumptions C08_enqueue_implies_authenticated.
Print Assumptions C08_accepted_implies_authenticated.
Print Assumptions C08_fail_closed.
Print Assumptions C08_basic_user_in_table.
Print Assumptions C08_no_route_untouched.
Print Assumptions C08_basic_failure_401.
Print Assumptions C08_forward_failure_status.
Print Assumptions C08_hmac_failure_401.
Print Assumptions C08_tamper_needs_collision.
Print Assumptions C08_string_to_sign_inj.
Print Assumptions C08_compile_auth_rules.
