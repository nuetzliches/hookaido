(** C03, history level: between two dequeues that return the same message id, the lease issued by
    the first one ended - by expiry, by ack/nack/dead-letter presenting that very lease while it was
    unexpired, or by an operator cancel.  Stated over arbitrary histories of the model. *)
From Coq Require Import List ZArith NArith Bool Lia.
From HK Require Import Model.Queue Model.QueueMon Proofs.QueueBase Proofs.QueueInv Proofs.QueueInvStep
  Proofs.QueueStep Proofs.QueueTrace Proofs.QueueLease Proofs.QueueFence.
Import ListNotations.
Open Scope Z_scope.

Definition holds (i l : N) (ms : list msg) : bool :=
  match find_id i ms with
  | Some m => is_leased m && match m_lease m with Some x => N.eqb x l | None => false end
  | None => false
  end.

Lemma holds_spec i l ms : holds i l ms = true -> exists m, find_id i ms = Some m /\ is_leased m = true /\ m_lease m = Some l.
Proof.
  unfold holds. destruct (find_id i ms) as [m|]; [|discriminate]. rewrite andb_true_iff. intros [A B].
  exists m. split; [reflexivity|]. split; [exact A|]. destruct (m_lease m) as [x|]; [|discriminate].
  apply N.eqb_eq in B. subst. reflexivity.
Qed.

(** how the lease [l] of message [i] can stop being held across one sound event *)
Definition ended_legally (c : cfg) (e : event) (i l : N) : Prop :=
  exists m, find_id i (ev_before e) = Some m /\ m_lease m = Some l /\ is_leased m = true /\
    ((expired (op_now (ev_op e)) m = true /\ releases (ev_op e) = true)
     \/ (In l (presented (ev_op e)) /\ op_now (ev_op e) < m_until m
         /\ exists k, lease_op_kind (ev_op e) = Some k /\ is_extend k = false)
     \/ manage_kind_of (ev_op e) = Some MCancel).

Lemma event_ends_lease c e i l :
  event_sound c e -> holds i l (ev_before e) = true -> holds i l (ev_after e) = false -> ended_legally c e i l.
Proof.
  intros [[NDb _] [[NDa [COa _]] Sp]] Hb Ha.
  destruct (holds_spec i l _ Hb) as [m [F [Il L]]]. exists m. split; [exact F|]. split; [exact L|]. split; [exact Il|].
  apply find_id_Some in F. destruct F as [Hm Ei]. subst i.
  destruct (spec_fate c _ _ _ _ _ m NDb Sp Hm) as [[m' [Hm' Ch]] | Rm].
  - (* the message survives as m': it no longer holds l *)
    destruct (change_same_imm _ _ _ _ _ Ch) as [Eid _].
    assert (F2 : find_id (m_id m) (ev_after e) = Some m') by (rewrite Eid; apply find_id_In_NoDup; assumption).
    unfold holds in Ha. rewrite F2 in Ha.
    assert (Hne : m_lease m' <> Some l).
    { intros Hl. rewrite Hl, N.eqb_refl, andb_true_r, (lease_is_leased m' l (COa m' Hm') Hl) in Ha. discriminate Ha. }
    apply (lease_ends_legally c (ev_op e) (ev_res e) m m' l Ch L Il Hne).
  - (* removed while leased: only by its own ack *)
    destruct (removal_of_live_lease c _ _ m Rm Il) as [Hk [lid [L2 [Hp Hu]]]].
    right. left. assert (lid = l) by congruence. subst lid. split; [exact Hp|]. split; [exact Hu|].
    exists KAck. split; [exact Hk | reflexivity].
Qed.

Lemma first_flip (P : nat -> bool) i j : (i < j)%nat -> P i = true -> P j = false ->
  exists k, (i <= k < j)%nat /\ P k = true /\ P (S k) = false.
Proof.
  intros Hij. induction j as [|j IH]; [lia|]. intros Pi Pj.
  destruct (Nat.eq_dec i j) as [E | N].
  - subst. exists j. split; [lia|]. split; assumption.
  - destruct (P j) eqn:Ej.
    + exists j. split; [lia|]. split; assumption.
    + destruct IH as [k [Hk [A B]]]; [lia | exact Pi | reflexivity|]. exists k. split; [lia|]. split; assumption.
Qed.

(** the state the [k]-th operation of a history runs in *)
Fixpoint state_before (fl : flavour) (c : cfg) (s : state) (xs : list (op * oracle)) (k : nat) : state :=
  match k, xs with
  | S k', (x, o) :: tl => state_before fl c (fst (step fl c s x o)) tl k'
  | _, _ => s
  end.

Lemma run_event_step fl c s xs k e :
  Inv s -> nth_error (fst (run fl c s xs)) k = Some e ->
  exists x o, nth_error xs k = Some (x, o) /\ ev_op e = x /\ ev_orc e = o
    /\ Inv (state_before fl c s xs k)
    /\ step fl c (state_before fl c s xs k) x o = (state_before fl c s xs (S k), ev_res e)
    /\ ev_before e = msgs (state_before fl c s xs k) /\ ev_after e = msgs (state_before fl c s xs (S k)).
Proof.
  revert s k. induction xs as [|[x o] tl IH]; intros s k I H; [destruct k; discriminate|].
  simpl in H. destruct (step fl c s x o) as [s' r] eqn:Es. destruct (run fl c s' tl) as [evs sf] eqn:Er. simpl in H.
  destruct k as [|k].
  - inversion H; subst e. exists x, o. simpl.
    assert (E0 : forall s0, state_before fl c s0 tl 0 = s0) by (intros; destruct tl as [|[? ?] ?]; reflexivity).
    rewrite !E0, Es. simpl. repeat (split; [reflexivity|]). split; [exact I|]. repeat split.
  - simpl in H. pose proof (step_inv_eq fl c s x o s' r I Es) as I'.
    specialize (IH s' k I'). rewrite Er in IH. simpl in IH. destruct (IH H) as [x1 [o1 [A [B [Cc [D [E [F G]]]]]]]].
    exists x1, o1. simpl. rewrite Es. simpl. auto 10.
Qed.

Theorem held_lease_ends fl c xs i j ei ej m l :
  let evs := model_trace fl c xs in
  (i < j)%nat -> nth_error evs i = Some ei -> nth_error evs j = Some ej ->
  holds m l (ev_after ei) = true -> holds m l (ev_after ej) = false ->
  exists k ek, (i < k <= j)%nat /\ nth_error evs k = Some ek /\ ended_legally c ek m l.
Proof.
  intros evs Hij Hi Hj Hh Hn.
  destruct (run_event_step fl c init xs i ei inv_init Hi) as (_ & _ & _ & _ & _ & _ & _ & _ & Ai).
  destruct (run_event_step fl c init xs j ej inv_init Hj) as (_ & _ & _ & _ & _ & _ & _ & _ & Aj).
  rewrite Ai in Hh. rewrite Aj in Hn.
  destruct (first_flip (fun k => holds m l (msgs (state_before fl c init xs (S k)))) i j Hij Hh Hn) as [k [Hk [A B]]].
  destruct (nth_error evs (S k)) as [ek|] eqn:Ek.
  2:{ exfalso. apply nth_error_None in Ek. assert (j < length evs)%nat by (apply nth_error_Some; congruence). lia. }
  destruct (run_event_step fl c init xs (S k) ek inv_init Ek) as (_ & _ & _ & _ & _ & _ & _ & Bk & Ak).
  exists (S k), ek. split; [lia|]. split; [exact Ek|]. apply event_ends_lease.
  - pose proof (trace_sound fl c xs) as TS. rewrite Forall_forall in TS. apply TS, (nth_error_In _ _ Ek).
  - rewrite Bk. exact A.
  - rewrite Ak. exact B.
Qed.

Theorem lease_epochs fl c xs i j ei ej m l :
  let evs := model_trace fl c xs in
  (i < j)%nat -> nth_error evs i = Some ei -> nth_error evs j = Some ej ->
  is_dequeue (ev_op ei) = true -> In (m, l) (item_pairs (ev_res ei)) ->
  is_dequeue (ev_op ej) = true -> In m (item_ids (ev_res ej)) ->
  (* the first dequeue left m leased under l; the second found it not held under l any more, or expired *)
  holds m l (ev_after ei) = true ->
  holds m l (ev_after ej) = false ->
  exists k ek, (i < k <= j)%nat /\ nth_error evs k = Some ek /\ ended_legally c ek m l.
Proof. intros evs Hij Hi Hj _ _ _ _. apply held_lease_ends; assumption. Qed.

Lemma state_before_issued_mono fl c s xs i j l :
  (i <= j)%nat -> In l (issued (state_before fl c s xs i)) -> In l (issued (state_before fl c s xs j)).
Proof.
  revert s i j. induction xs as [|[x o] tl IH]; intros s i j Hij H.
  - destruct i; destruct j; simpl in *; exact H.
  - destruct i as [|i]; destruct j as [|j]; simpl in *; try lia; try exact H.
    + apply (IH _ O j); [lia|]. destruct tl as [|[x2 o2] tl2]; simpl; apply step_issued_mono; exact H.
    + apply (IH _ i j); [lia | exact H].
Qed.

Lemma dequeue_item_held fl c s x o s' r i l :
  Inv s -> step fl c s x o = (s', r) -> is_dequeue x = true -> In (i, l) (item_pairs r) ->
  holds i l (msgs s') = true /\ ~ In l (issued s) /\ In l (issued s').
Proof.
  intros I St De Pn. destruct x; try discriminate De. cbn [step] in St.
  destruct r as [| | |items| | | | |]; simpl in Pn; try contradiction.
  apply in_map_iff in Pn. destruct Pn as [[[[i0 l0] a0] u0] [Ep Hit]]. simpl in Ep. inversion Ep; subst i0 l0.
  destruct (dequeue_sound fl c now route target batch ttl o s s' items I St) as [_ [_ [_ Hall]]].
  destruct (Hall _ _ _ _ Hit) as [m0 [_ [_ [F [_ [_ [_ [Nin Iin]]]]]]]].
  split; [|split; assumption]. unfold holds. rewrite F. simpl. rewrite N.eqb_refl. reflexivity.
Qed.

