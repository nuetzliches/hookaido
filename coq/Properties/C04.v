(** C04 - lease fencing: stale or foreign leases cannot change a message.
    Statements, each derived from Proofs/. *)
From Coq Require Import List ZArith NArith Bool.
From HK Require Import Model.Queue Model.QueueMon Proofs.QueueInv Proofs.QueueInvStep Proofs.QueueStep
  Proofs.QueueFence Proofs.QueueMonSound Proofs.QueueMonC04.
Import ListNotations.
Open Scope Z_scope.

(** ack / nack / positive extend / dead-letter with lease id x:
    - if x is the current, unexpired lease of a message m: success, m gets the operation's effect,
      every other message is untouched;
    - otherwise: a conflict (not found / expired), nothing changes except that a message still
      leased under x whose lease has expired goes back to the queue (and then the answer is "expired"). *)
Theorem C04_single_op_fenced : forall fl c now k x p s s' r,
  Inv s -> is_noop_extend k = false -> step_lease fl c now k (LKnown x p) s = (s', r) ->
  exists pm, msgs s' = apply_pm pm (msgs s) /\
    match current now x (msgs s) with
    | Some m => r = RUnit /\ pm m = lease_effect c now k m
                /\ forall y, In y (msgs s) -> y <> m -> pm y = Some y
    | None => (r = RErr ENotFound \/ r = RErr EExpired) /\
              forall y, In y (msgs s) ->
                pm y = Some y
                \/ (m_lease y = Some x /\ expired now y = true /\ pm y = Some (release now y) /\ r = RErr EExpired)
    end.
Proof. exact lease_op_fenced. Qed.

Theorem C04_blank_or_unknown_lease : forall fl c now k s,
  is_noop_extend k = false ->
  step_lease fl c now k LBlank s = (s, RErr ENotFound) /\ step_lease fl c now k LUnknown s = (s, RErr ENotFound).
Proof. intros fl c now k s H. unfold step_lease. rewrite H. split; reflexivity. Qed.

(** the documented no-op: extend by a non-positive duration *)
Theorem C04_nonpositive_extend_noop : forall fl c now by_ l s, by_ <= 0 -> step_lease fl c now (KExtend by_) l s = (s, RUnit).
Proof. exact extend_nonpositive_is_noop. Qed.

(** batch calls apply the same rule per lease id: every message is unchanged, or released because its
    expired lease was presented, or settled because its current unexpired lease was presented - and a
    presented current lease always takes effect (exactly once, duplicates conflict). *)
Theorem C04_batch_fenced : forall c now k ls s s' r,
  batch_kind_ok k = true -> Inv s -> step_lease_batch c now k ls s = (s', r) ->
  let k' := match k with KNack d => KNack (Z.max d 0) | _ => k end in
  exists pm, msgs s' = apply_pm pm (msgs s)
    /\ (forall m, In m (msgs s) -> lchange c now k' (known_leases ls) m (pm m))
    /\ (forall m x, In m (msgs s) -> m_lease m = Some x -> In x (known_leases ls) -> is_leased m = true ->
                    now < m_until m -> pm m = lease_effect c now k' m).
Proof. exact lease_batch_fenced. Qed.

(** cancel / requeue / resume / expiry void the lease ... *)
Theorem C04_operator_mutation_voids_lease : forall now k m m', manage_effect now k m = Some m' -> m_lease m' = None.
Proof. exact manage_effect_clears. Qed.

(** ... and a lease id that no message holds any more (an earlier epoch) is never current again,
    whatever happens later: new leases are always fresh ids. *)
Theorem C04_voided_lease_never_returns : forall fl c s xs l,
  Inv s -> In l (issued s) -> (forall m, In m (msgs s) -> m_lease m <> Some l) ->
  forall m, In m (msgs (snd (run fl c s xs))) -> m_lease m <> Some l.
Proof.
  intros fl c s xs l I Hi Hn.
  apply (run_invariant fl c (fun s => Inv s /\ In l (issued s) /\ forall m, In m (msgs s) -> m_lease m <> Some l)); [|auto].
  clear. intros s x o [I [Hi Hn]]. split; [apply step_inv; exact I|]. split; [apply step_issued_mono; exact Hi|].
  (* a lease in the new state was held before or has just been issued, and [l] is neither *)
  intros m' Hm' L. destruct (step fl c s x o) as [s' r] eqn:E.
  destruct (step_lease_source fl c s x o s' r m' l I E Hm' L) as [[m [Hm Lm]] | [Nin _]]; [apply (Hn m Hm Lm) | contradiction].
Qed.

Example C04_witness :
  let e := mkEnq (Some 7%N) 1%N 1%N None None 5%N 0%N 0%N in
  let o0 := mkOracle [] [] [] [] in
  map ev_res (model_trace Sql (mkCfg 0 false 0 0 0 0 0 0)
     [(Enqueue 100 e, o0);
      (Dequeue 200 None None 1 1000, mkOracle [(7%N, 1%N)] [] [] []);
      (LeaseOp 1200 KAck (LKnown 1%N false), o0);                       (* expired: conflict, message requeued *)
      (Dequeue 1300 None None 1 1000, mkOracle [(7%N, 2%N)] [] [] []);
      (LeaseOp 1400 KAck (LKnown 1%N false), o0);                       (* stale epoch: not found *)
      (LeaseOp 1500 KAck (LKnown 2%N false), o0)])                      (* current: success *)
  = [RUnit; RItems [(7%N, 1%N, 1, 1200)]; RErr EExpired; RItems [(7%N, 2%N, 2, 2300)]; RErr ENotFound; RUnit].
Proof. vm_compute. reflexivity. Qed.

(** A lease batch settles exactly the stored messages whose current, unexpired lease it presents; every
    other presented id is reported as a conflict, and the conflicts classified "expired" are exactly the
    stored messages whose expired lease it presents (duplicates in the batch count once). *)
Theorem C04_batch_counts_exact : forall c now k ls ms iss,
  batch_kind_ok k = true -> InvL ms iss ->
  let '(ms', n, cs) := lease_batch c now k ls ms in
  n = Z.of_nat (length (filter (curb now (known_leases ls)) ms))
  /\ Z.of_nat (length cs) = Z.of_nat (length ls) - n
  /\ truecount cs = length (filter (expb now (known_leases ls)) ms).
Proof. exact lease_batch_counts. Qed.

(** The executable monitor, per event: a lease operation touches only the stored messages whose lease
    it presents, in the way the fencing theorems above say, and reports what it did. *)
Theorem C04_monitor_holds_on_every_step : forall fl c s x o s' r,
  store_lease_op x -> Inv s -> step fl c s x o = (s', r) -> c04_event c (mkEvent x o r (msgs s) (msgs s')) = true.
Proof.
  intros fl c s x o s' r Hso Hi H. destruct x; try reflexivity; cbn [step] in H.
  - exact (c04_lease_op fl c _ _ _ o s s' r Hi H).
  - destruct (batch_kind_ok k) eqn:Hk; [exact (c04_batch c _ k _ o s s' r Hk Hi H)|].
    destruct k; try discriminate Hk. contradiction.
Qed.

(** The executable monitor [P_C04] - what the correspondence check evaluates on traces of the Go stores -
    holds on every trace of the model made of Store-interface operations (there is no batch Extend). *)
Theorem C04_monitor_holds_on_every_model_trace : forall fl c xs,
  Forall (fun xo : op * oracle => store_lease_op (fst xo)) xs -> P_C04 fl c (model_trace fl c xs) = true.
Proof.
  intros fl c xs H.
  apply (mon_all_on_run fl c _ (fun _ _ => Forall (fun xo => store_lease_op (fst xo))) (fun _ => True));
    [| exact inv_init | exact H | apply Forall_forall; trivial].
  intros s iss x o tl s' r Hi Hxs Es e. inversion Hxs; subst. split; [assumption|].
  intros _ ins. apply (C04_monitor_holds_on_every_step fl c s x o s' r); assumption.
Qed.

Print Assumptions C04_single_op_fenced.
Print Assumptions C04_blank_or_unknown_lease.
Print Assumptions C04_nonpositive_extend_noop.
Print Assumptions C04_batch_fenced.
Print Assumptions C04_operator_mutation_voids_lease.
Print Assumptions C04_voided_lease_never_returns.
Print Assumptions C04_batch_counts_exact.
Print Assumptions C04_monitor_holds_on_every_model_trace.
Print Assumptions C04_monitor_holds_on_every_step.
