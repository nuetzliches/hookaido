(** C16 — the egress policy is enforced on every delivery and on every redirect hop.
    Theorem statements, each derived from the lemmas of Proofs/IpClassProofs.v and
    Proofs/EgressProofs.v.

    Model: Model/Egress.v (checkEgressPolicyURL, matchEgressRules, matchHostRule, the hop loop
    of HTTPDeliverer.Deliver/checkRedirect, classifyDelivery), Model/IpClass.v (Go's net.IP class
    predicates, isAllowedIP, netip.Prefix.Contains).  Spec: Model/IpSpec.v (the address classes
    as RFC ranges, IPv4-mapped addresses classified by the IPv4 address they embed).
    All statements quantify over every policy, every hop (scheme/host strings, resolver answer,
    literal) and every redirect chain; nothing is bounded. *)
From Coq Require Import String Ascii List Bool NArith ZArith Arith Lia.
From HK Require Import Model.StrUtil Model.IpClass Model.IpSpec Model.Egress Proofs.IpClassProofs Proofs.EgressProofs.
Import ListNotations.
Local Open Scope string_scope.

(** With dns_rebind_protection an allowed hop resolved to at least one address and none of the
    addresses it resolved to - the literal, or every non-nil resolver answer - is loopback,
    private, link-local, multicast or unspecified, for IPv4, IPv6 and IPv4-mapped forms. *)
Theorem C16_rebind_safe : forall p u,
  p_rebind p = true -> check p u = Allow ->
  resolved_addrs u <> [] /\
  forall i, In i (resolved_addrs u) ->
    ~ spec_loopback i /\ ~ spec_private i /\ ~ spec_link_local i /\ ~ spec_multicast i /\ ~ spec_unspecified i.
Proof. exact rebind_safe. Qed.

(** isAllowedIP exactly: a 4- or 16-byte address outside the five classes that is not 255.255.255.255. *)
Theorem C16_allowed_ip_exact : forall i,
  is_allowed_ip i = true <->
  ip_fam i <> FBad /\ ~ spec_loopback i /\ ~ spec_private i /\ ~ spec_link_local i /\
  ~ spec_multicast i /\ ~ spec_unspecified i /\ ~ spec_broadcast i.
Proof. exact is_allowed_ip_spec. Qed.

(** Go's byte tests coincide with the RFC ranges, class by class (all values, no side condition). *)
Theorem C16_classes_are_rfc_ranges : forall i,
  (is_loopback i = true <-> spec_loopback i) /\ (is_private i = true <-> spec_private i) /\
  (is_ll_unicast i = true <-> spec_link_local i) /\ (is_multicast i = true <-> spec_multicast i) /\
  (is_unspecified i = true <-> spec_unspecified i).
Proof.
  intros i.
  exact (conj (is_loopback_spec i) (conj (is_private_spec i) (conj (is_ll_unicast_spec i)
        (conj (is_multicast_spec i) (is_unspecified_spec i))))).
Qed.

(** Deny rules win: a hop whose host or one of whose addresses matches a deny rule is never allowed,
    whatever the allow list says. *)
Theorem C16_deny_wins : forall p u,
  match_rules (norm_host (h_hostname u)) (ips_seen p u) (p_deny p) = true -> check p u <> Allow.
Proof. exact deny_wins. Qed.

(** A non-empty allowlist is closed: an allowed hop matches one of its rules. *)
Theorem C16_allowlist_closed : forall p u,
  p_allow p <> [] -> check p u = Allow ->
  match_rules (norm_host (h_hostname u)) (ips_seen p u) (p_allow p) = true.
Proof. exact allowlist_closed. Qed.

(** What "matches" means: some rule; an IP/CIDR rule through one of the addresses, a host rule through the host. *)
Theorem C16_match_rules_spec : forall host ips rs,
  match_rules host ips rs = true <->
  exists r, In r rs /\
    if r_is_cidr r then exists i, In i ips /\ cidr_hit (r_px r) i = true
    else match_host host r = true.
Proof.
  intros host ips rs. unfold match_rules. rewrite existsb_exists.
  split; intros [r [Hin H]]; exists r; (split; [exact Hin | apply match_rule_spec; exact H]).
Qed.

(** An IP/CIDR rule hits an address iff the address it denotes (mapped = embedded IPv4) lies in
    the rule's block: same family, same leading [bits] bits. *)
Theorem C16_cidr_hit_spec : forall px i,
  cidr_hit px i = true <->
  match px_fam px, denotes i with
  | F4, A4 v => spec_in_block 32 (px_bits px) (px_addr px) v
  | F6, A6 w => spec_in_block 128 (px_bits px) (px_addr px) w
  | _, _ => False
  end.
Proof. exact cidr_contains_denoted. Qed.

(** When any IP/CIDR rule exists (or rebind protection is on) the rules see every resolved address. *)
Theorem C16_cidr_rules_see_addresses : forall p u r,
  (In r (p_allow p) \/ In r (p_deny p)) -> r_is_cidr r = true -> ips_seen p u = resolved_addrs u.
Proof.
  intros p u r Hin Hc. unfold ips_seen. rewrite (cidr_rule_needs_ips p r Hin Hc). reflexivity.
Qed.

(** "*.domain" matches proper sub-domains only: the host must end in "." ++ domain ... *)
Theorem C16_wildcard_subdomains_only : forall h r,
  r_sub r = true -> r_host r <> "" -> r_host r <> "*" ->
  (match_host h r = true <-> exists label, h = label ++ "." ++ r_host r).
Proof.
  intros h r Hs Hne Hw. rewrite match_host_spec, Hs. split; [tauto|].
  intros [l ->]. repeat split; trivial; [destruct l; discriminate | right].
  split; [apply append_dot_neq | exists l; reflexivity].
Qed.

(** ... in particular never the domain itself; *)
Theorem C16_wildcard_excludes_apex : forall d, d <> "*" -> match_host d (host_rule d true) = false.
Proof.
  intros d Hw. apply not_true_iff_false. rewrite match_host_spec. cbn [host_rule r_host r_sub].
  intros (_ & _ & [H|[H _]]); congruence.
Qed.

(** an exact rule matches exactly its host; "*" matches every (non-empty) host. *)
Theorem C16_exact_host : forall h r,
  r_sub r = false -> r_host r <> "*" -> (match_host h r = true <-> h = r_host r /\ h <> "").
Proof.
  intros h r Hs Hw. rewrite match_host_spec, Hs. intuition congruence.
Qed.

Theorem C16_star_matches_all : forall h r, r_host r = "*" -> h <> "" -> match_host h r = true.
Proof.
  intros h r Hr Hh. apply match_host_spec. rewrite Hr. repeat split; [discriminate | exact Hh | left; reflexivity].
Qed.

(** Only http and https (any letter case); https only when https_only; never an empty host. *)
Theorem C16_scheme_closed : forall p u, check p u = Allow ->
  to_lower (h_scheme u) = "http" \/ to_lower (h_scheme u) = "https".
Proof. exact scheme_closed. Qed.

Theorem C16_https_only_closed : forall p u,
  p_https_only p = true -> check p u = Allow -> to_lower (h_scheme u) = "https".
Proof. exact https_only_closed. Qed.

(** The complete characterisation of "allowed" (nothing else lets a hop through, nothing else stops it). *)
Theorem C16_check_exact : forall p u,
  check p u = Allow <->
  scheme_ok (h_scheme u) = true /\
  (p_https_only p = true -> to_lower (h_scheme u) = "https") /\
  norm_host (h_hostname u) <> "" /\
  (need_ips p = true -> resolved_addrs u <> []) /\
  (p_rebind p = true -> forall i, In i (resolved_addrs u) -> is_allowed_ip i = true) /\
  match_rules (norm_host (h_hostname u)) (ips_seen p u) (p_deny p) = false /\
  (p_allow p <> [] -> match_rules (norm_host (h_hostname u)) (ips_seen p u) (p_allow p) = true).
Proof. exact check_allow_iff. Qed.

(** A request is sent to hop [i] of an arbitrary redirect chain only if hop [i] and every hop
    before it passed the policy check (so nothing is ever sent to, or past, a refused hop). *)
Theorem C16_no_send_when_denied : forall p chain i h,
  nth_error (fst (deliver p chain)) i = Some h ->
  nth_error chain i = Some h /\
  forall j, j <= i -> exists hj, nth_error chain j = Some hj /\ check p hj = Allow.
Proof. exact no_send_when_denied. Qed.

(** Exactly: the requests sent are the longest all-allowed prefix of the chain, cut after one
    request when redirects are off and after ten when they are on. *)
Theorem C16_sent_exact : forall p chain,
  fst (deliver p chain) = firstn (if p_redirects p then 10 else 1) (take_while (allowed p) chain).
Proof. exact deliver_sent. Qed.

(** Redirects are not followed unless enabled: at most the target itself is contacted. *)
Theorem C16_redirects_off : forall p chain, p_redirects p = false ->
  length (fst (deliver p chain)) <= 1 /\ forall i, 1 <= i -> nth_error (fst (deliver p chain)) i = None.
Proof. exact redirects_off. Qed.

Theorem C16_hop_limit : forall p chain, length (fst (deliver p chain)) <= 10.
Proof. intros p chain. exact (Nat.le_trans _ _ _ (sent_length p chain) (hop_budget_le p)). Qed.

(** A refusal reported by the deliverer names the first hop that is not allowed; that hop was not contacted. *)
Theorem C16_refusal_is_first_bad_hop : forall p chain v,
  snd (deliver p chain) = OStopped v ->
  v <> Allow /\ exists h, nth_error chain (length (fst (deliver p chain))) = Some h /\ check p h = v.
Proof.
  intros p chain v. unfold deliver. destruct chain as [|h0 rest]; [discriminate|].
  rewrite (hop_step p h0 _ (fun v => ([], OStopped v))). destruct (allowed p h0) eqn:Ea.
  - pose proof (follow_stopped p rest 1 v) as H. destruct (follow p 1 rest) as [s o]. exact H.
  - intros [= <-]. rewrite <- allowed_true, Ea. split; [discriminate|]. exists h0. split; reflexivity.
Qed.

(** A refused target: no request at all, and the dispatcher dead-letters it as policy_denied at
    once - for every attempt number and every retry budget - and for nothing but a policy denial. *)
Theorem C16_denied_target_sends_nothing : forall p h0 rest why,
  check p h0 = Deny why -> deliver p (h0 :: rest) = ([], OStopped (Deny why)).
Proof. intros p h0 rest why H. unfold deliver. rewrite H. reflexivity. Qed.

Theorem C16_denied_is_dead_unretried : forall why status attempt max,
  classify (result_of (OStopped (Deny why)) status) attempt max = LMarkDead DPolicyDenied.
Proof. exact denied_is_dead_unretried. Qed.

Theorem C16_policy_denied_only_for_denial : forall o status attempt max,
  classify (result_of o status) attempt max = LMarkDead DPolicyDenied <-> exists why, o = OStopped (Deny why).
Proof.
  intros o status attempt max. rewrite classify_policy_denied. apply result_of_policy_denied.
Qed.

(** IP/CIDR rules written in IPv4-mapped notation (::ffff:a.b.c.d[/n], n >= 96): config.parseEgressRule
    unmaps them ([compile_prefix], fix 4e2df4c), and the compiled rule hits exactly the addresses its
    unmapped form names - every address (plain, or itself IPv4-mapped) that denotes an IPv4 address
    inside a.b.c.d/(n-96); equivalently, whose IPv4-mapped spelling lies in the 128-bit block as written. *)
Theorem C16_mapped_rule_hits_unmapped_form : forall px i,
  px_fam px = F6 -> (96 <= px_bits px)%N -> (mapped_lo <= px_addr px <= mapped_hi)%N ->
  (cidr_hit (compile_prefix px) i = true <->
   match denotes i with
   | A4 v => spec_in_block 32 (px_bits px - 96) (px_addr px - mapped_lo) v
   | _ => False
   end).
Proof.
  intros px i Hf Hb Hm. rewrite (compile_prefix_mapped px Hf Hb Hm), C16_cidr_hit_spec.
  reflexivity.
Qed.

Theorem C16_mapped_rule_hits_mapped_spelling : forall px i,
  px_fam px = F6 -> (96 <= px_bits px <= 128)%N -> (mapped_lo <= px_addr px <= mapped_hi)%N ->
  (cidr_hit (compile_prefix px) i = true <->
   match denotes i with
   | A4 v => spec_in_block 128 (px_bits px) (px_addr px) (mapped_lo + v)
   | _ => False
   end).
Proof.
  intros px i Hf Hb Hm. rewrite (C16_mapped_rule_hits_unmapped_form px i Hf (proj1 Hb) Hm).
  destruct (denotes i) as [v| |]; try tauto.
  unfold spec_in_block, blk_size.
  replace (32 - (px_bits px - 96))%N with (128 - px_bits px)%N by lia.
  replace (px_addr px) with (mapped_lo + (px_addr px - mapped_lo))%N at 2 by lia.
  rewrite div_pow2_shift_mapped by lia. split; intros [H1 H2]; (split; [lia | exact H2]).
Qed.

(** Every other rule (plain IPv4, plain IPv6, mapped address with fewer than 96 prefix bits) is kept as written. *)
Theorem C16_compile_prefix_other : forall px,
  (px_fam px <> F6 \/ (px_bits px < 96)%N \/ ~ (mapped_lo <= px_addr px <= mapped_hi)%N) ->
  compile_prefix px = px.
Proof.
  intros px H. unfold compile_prefix. destruct (px_fam px); try reflexivity.
  destruct H as [H|[H|H]]; [congruence | |].
  - apply N.leb_gt in H. rewrite H, andb_false_r. reflexivity.
  - change (~ between mapped_lo mapped_hi (px_addr px)) in H.
    rewrite <- is4in6_spec in H. apply not_true_is_false in H. rewrite H. reflexivity.
Qed.

(** Hence a deny rule in that notation wins like any other: a hop one of whose addresses it names is never allowed. *)
Theorem C16_mapped_deny_rule_wins : forall p u r px i v,
  In r (p_deny p) -> r_is_cidr r = true -> r_px r = compile_prefix px ->
  px_fam px = F6 -> (96 <= px_bits px)%N -> (mapped_lo <= px_addr px <= mapped_hi)%N ->
  In i (resolved_addrs u) -> denotes i = A4 v ->
  spec_in_block 32 (px_bits px - 96) (px_addr px - mapped_lo) v ->
  check p u <> Allow.
Proof.
  intros p u r px i v Hin Hc Hpx Hf Hb Hm Hi Hd Hblk. apply deny_wins, C16_match_rules_spec.
  exists r. split; [exact Hin|].
  rewrite Hc, (C16_cidr_rules_see_addresses p u r (or_intror Hin) Hc).
  exists i. split; [exact Hi|]. rewrite Hpx.
  apply (C16_mapped_rule_hits_unmapped_form px i Hf Hb Hm). rewrite Hd. exact Hblk.
Qed.

Print Assumptions C16_rebind_safe.
Print Assumptions C16_allowed_ip_exact.
Print Assumptions C16_classes_are_rfc_ranges.
Print Assumptions C16_deny_wins.
Print Assumptions C16_allowlist_closed.
Print Assumptions C16_match_rules_spec.
Print Assumptions C16_cidr_hit_spec.
Print Assumptions C16_cidr_rules_see_addresses.
Print Assumptions C16_wildcard_subdomains_only.
Print Assumptions C16_wildcard_excludes_apex.
Print Assumptions C16_exact_host.
Print Assumptions C16_star_matches_all.
Print Assumptions C16_scheme_closed.
Print Assumptions C16_https_only_closed.
Print Assumptions C16_check_exact.
Print Assumptions C16_no_send_when_denied.
Print Assumptions C16_sent_exact.
Print Assumptions C16_redirects_off.
Print Assumptions C16_hop_limit.
Print Assumptions C16_refusal_is_first_bad_hop.
Print Assumptions C16_denied_target_sends_nothing.
Print Assumptions C16_denied_is_dead_unretried.
Print Assumptions C16_policy_denied_only_for_denial.
Print Assumptions C16_mapped_rule_hits_unmapped_form.
Print Assumptions C16_mapped_rule_hits_mapped_spelling.
Print Assumptions C16_compile_prefix_other.
Print Assumptions C16_mapped_deny_rule_wins.
