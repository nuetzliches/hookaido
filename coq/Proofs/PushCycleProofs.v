(** One enqueue/requeue cycle of one message, on the queue model.
    Model/Dispatcher.v's [cycle] ASSUMES "every dequeue increments the attempt by one" and "a nack
    re-queues the message for the next dequeue, an ack / mark-dead ends the cycle".  Here those
    assumptions are discharged from Model/Queue.v: a cycle is a chain of rounds, each round a
    Dequeue that returns the message followed by the settlement the dispatcher chooses for the
    answer it got, applied before the lease runs out; nothing else touches the store in between
    (the property's "lease mutations on the store succeed"). *)
From Coq Require Import List ZArith NArith Bool Lia QArith.
From HK Require Import Model.Queue Model.Dispatcher Model.PushLoop Proofs.QueueBase Proofs.QueueInv
  Proofs.QueueInvStep Proofs.QueueLease Proofs.PushLoopProofs.
Import ListNotations.
Open Scope Z_scope.

(** what the target answers in one round, and the jitter draw of that round *)
Record answer := mkAnswer { an_result : result; an_draw : Q }.

Definition round_item (rc : retry_cfg) (l : N) (att : Z) (a : answer) : item :=
  mkItem l att (Some rc) (an_result a) (an_draw a).

(** one round on message [i]: a dequeue that hands [i] out (whatever else it returns), then the
    settlement of [i] inside the lease *)
Inductive round (fl : flavour) (c : cfg) (rc : retry_cfg) (i : N) (a : answer)
  : state -> Z -> action -> state -> Prop :=
| round_intro s now route target batch ttl o s1 items l att un ts o2 s2 r :
    step fl c s (Dequeue now route target batch ttl) o = (s1, RItems items) ->
    In (i, l, att, un) items ->
    ts < un ->
    step fl c s1 (LeaseOp ts (settle_kind rc (round_item rc l att a)) (LKnown l false)) o2 = (s2, r) ->
    round fl c rc i a s att (classify (an_result a) att (rc_max rc)) s2.

(** a cycle: rounds chained while the answer is a retry *)
Inductive cycle_on_queue (fl : flavour) (c : cfg) (rc : retry_cfg) (i : N)
  : state -> list answer -> list Z -> state -> terminal -> Prop :=
| cq_ack s a att s2 : round fl c rc i a s att AAck s2 -> cycle_on_queue fl c rc i s [a] [att] s2 TDelivered
| cq_dead s a att why s2 : round fl c rc i a s att (ADead why) s2 -> cycle_on_queue fl c rc i s [a] [att] s2 (TDead why)
| cq_retry s a att s2 more atts s3 t :
    round fl c rc i a s att ANack s2 -> cycle_on_queue fl c rc i s2 more atts s3 t ->
    cycle_on_queue fl c rc i s (a :: more) (att :: atts) s3 t.

Definition state_of (i : N) (s : state) : option msg := find_id i (msgs s).

Definition final_ok (c : cfg) (i : N) (s' : state) (t : terminal) (att : Z) : Prop :=
  match t with
  | TDelivered => (c_deliv_age c <= 0 -> state_of i s' = None)
                  /\ (forall m2, state_of i s' = Some m2 -> m_st m2 = Delivered /\ m_attempt m2 = att /\ m_lease m2 = None)
  | TDead why => exists m2, state_of i s' = Some m2 /\ m_st m2 = Dead /\ m_reason m2 = reason_code why /\ m_attempt m2 = att
  end.

Lemma round_effect fl c rc i a s att act s2 m :
  Inv s -> round fl c rc i a s att act s2 -> state_of i s = Some m ->
  Inv s2 /\ att = m_attempt m + 1 /\ act = classify (an_result a) att (rc_max rc) /\
  match act with
  | AAck => final_ok c i s2 TDelivered att
  | ANack => exists m2, state_of i s2 = Some m2 /\ m_attempt m2 = att
  | ADead why => final_ok c i s2 (TDead why) att
  end.
Proof.
  intros I R Hm. destruct R as [s now route target batch ttl o s1 items l att un ts o2 s2 r Hd Hin Hts Hl].
  pose proof (step_inv fl c s (Dequeue now route target batch ttl) o I) as I1.
  rewrite Hd in I1. cbn [step fst] in Hd, I1.
  destruct (dequeued_item fl c now route target batch ttl o s s1 items i l att un I Hd Hin)
    as [m' [lv [Fm [Ea [Flv [Llv [Ilv [Ulv Alv]]]]]]]].
  unfold state_of in Hm. rewrite Hm in Fm. injection Fm as <-. destruct (find_id_Some _ _ _ Flv) as [Hlv Hid].
  set (k := settle_kind rc (round_item rc l att a)) in *.
  (* the settlement is a micro-batch of one call (a lease operation does not read the oracle) *)
  change (step fl c s1 (call_op ts (SOne k l)) (mkOracle [] [] [] []) = (s2, r)) in Hl.
  pose proof (run_calls_effect fl c [(ts, SOne k l)] s1 I1) as H. cbn [run_calls] in H. rewrite Hl in H.
  destruct H as [_ [I2 [_ Hn]]].
  { intros t x [E | []]. injection E as _ <-. apply settle_kind_class. }
  { apply NoDup_cons; [intros [] | apply NoDup_nil]. }
  { intros t x k0 l0 [E | []] Hkl. injection E as <- <-. destruct Hkl as [E | []]. injection E as _ <-.
    exists lv. repeat split; try assumption. lia. }
  destruct (Hn lv k l Hlv (or_introl eq_refl) Llv) as [t [[<- | []] Hfind]].
  cbn [fst] in I2, Hfind. rewrite Hid in Hfind. fold (state_of i s2) in Hfind.
  split; [exact I2|]. split; [exact Ea|]. split; [reflexivity|].
  unfold k, settle_kind, round_item in Hfind. cbn [it_result it_attempt it_draw it_lease] in Hfind.
  destruct (classify (an_result a) att (rc_max rc)) as [| |why]; cbn [final_ok]; rewrite Hfind; cbn [lease_effect].
  - split.
    + intros Hd0. destruct (0 <? c_deliv_age c) eqn:E; [apply Z.ltb_lt in E; lia | reflexivity].
    + intros m2 E. destruct (0 <? c_deliv_age c); [|discriminate]. injection E as <-. repeat split. exact Alv.
  - eexists. split; [reflexivity | exact Alv].
  - eexists. split; [reflexivity|]. repeat split. exact Alv.
Qed.

Definition dflt_answer : answer := mkAnswer (RStatus 200) 0.
Definition beh_of (l : list answer) (k : nat) : result := an_result (nth k l dflt_answer).
Definition draw_of (l : list answer) (k : nat) : Q := an_draw (nth k l dflt_answer).

(** [cycle] reads its answers from the [k]-th on *)
Lemma cycle_shift fuel rc beh beh' draw draw' :
  (forall j, beh (S j) = beh' j) -> (forall j, draw (S j) = draw' j) ->
  forall att k, cycle fuel rc att beh draw (S k) = cycle fuel rc att beh' draw' k.
Proof.
  intros Hb Hd. induction fuel as [|f IH]; intros att k; [reflexivity|].
  cbn [cycle]. rewrite Hb, Hd. destruct (classify (beh' k) att (rc_max rc)); try reflexivity. rewrite IH. reflexivity.
Qed.

Lemma cycle_cons n rc att a more :
  cycle (S n) rc att (beh_of (a :: more)) (draw_of (a :: more)) 0 =
  let recs := attempt_records rc att (an_result a) (an_draw a) in
  match classify (an_result a) att (rc_max rc) with
  | AAck => (recs, Some TDelivered)
  | ADead why => (recs, Some (TDead why))
  | ANack => let '(l, t) := cycle n rc (att + 1) (beh_of more) (draw_of more) 0 in (recs ++ l, t)
  end.
Proof.
  cbn [cycle]. unfold beh_of at 1 2, draw_of at 1. cbn [nth].
  destruct (classify (an_result a) att (rc_max rc)); try reflexivity.
  rewrite (cycle_shift n rc _ (beh_of more) _ (draw_of more)); [reflexivity | intros j; reflexivity | intros j; reflexivity].
Qed.
