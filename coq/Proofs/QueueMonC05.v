(** The C05 monitor (at-least-once redelivery) is sound for the model: at every dequeue of every
    model trace whose answer the model accepts the number of returned messages lies between min(batch, #messages that must be offered)
    and min(batch, #messages that may be offered), and only due or expired messages are returned.
    For the SQLite flavour (throttled lease sweep) this needs the clock never to run backwards. *)
From Coq Require Import List ZArith NArith Bool Lia.
From HK Require Import Gen.Consts Model.Queue Model.QueueMon Proofs.QueueBase Proofs.QueueInv
  Proofs.QueueInvStep Proofs.QueueStep Proofs.QueueLease Proofs.QueueRedeliver.
Import ListNotations.
Open Scope Z_scope.

Lemma filter_len_le (f g : msg -> bool) l :
  (forall y, In y l -> f y = true -> g y = true) -> (length (filter f l) <= length (filter g l))%nat.
Proof.
  induction l as [|x tl IH]; intros H; [apply Nat.le_refl|]. cbn [filter].
  assert (Htl : (length (filter f tl) <= length (filter g tl))%nat) by (apply IH; intros y Hy; apply H; right; exact Hy).
  destruct (f x) eqn:Ef.
  - rewrite (H x (or_introl eq_refl) Ef). cbn [length]. lia.
  - destruct (g x); cbn [length]; lia.
Qed.

Definition dueb (now : Z) (m : msg) : bool := queuedb m && (m_next m <=? now).

(** the stored message [m] is ready in the state the dequeue selects from *)
Definition offered (fl : flavour) (c : cfg) (now : Z) (route target : option N) (o : oracle) (s : state) (m : msg) : bool :=
  match deq_pre_pm fl c now o s m with Some m' => ready now route target m' | None => false end.

Lemma dequeue_survives fl c now o s picked ttl m :
  Inv s -> In m (msgs s) ->
  has_id (m_id m) (apply_pm (pm_lease now ttl picked) (msgs (deq_pre fl c now o s)))
  = match prune_pm c now (o_gone o) s m with Some _ => true | None => false end.
Proof.
  intros I Hm. pose proof (inv_nodup _ _ I) as ND. unfold has_id.
  rewrite find_id_apply_pm; [|auto with qimm | apply (deq_pre_inv fl c now o s I)].
  rewrite deq_pre_msgs, find_id_apply_pm, (find_id_In_NoDup _ _ ND Hm); [| apply deq_pre_pm_id_pres | exact ND].
  (* neither the sweep nor the lease phase removes a message *)
  unfold deq_pre_pm, pm_comp. destruct (prune_pm c now (o_gone o) s m) as [m1|]; [|reflexivity].
  destruct (match fl with Mem => true | Sql => _ end); unfold pm_sweep, pm_lease;
    [destruct (expired now m1)|]; destruct (lease_of picked _); reflexivity.
Qed.

Lemma sweep_interval_nonneg : 0 <= sql_sweep_interval_ns.
Proof. unfold sql_sweep_interval_ns. lia. Qed.

Lemma expired_earlier now d m : 0 <= d -> expired (now - d) m = true -> expired now m = true.
Proof.
  unfold expired. rewrite !andb_true_iff. intros Hd [A B]. split; [exact A|]. apply Z.leb_le in B. apply Z.leb_le. lia.
Qed.

(** the sweep throttle: either the dequeue sweeps, or (clock never ran backwards) no lease has been
    expired for a whole sweep interval *)
Definition sweep_ok (fl : flavour) (now : Z) (s : state) : Prop :=
  match fl with
  | Mem => True
  | Sql => sql_sweep_due now (last_sweep s) = true
           \/ forall m, In m (msgs s) -> expired (now - sql_sweep_interval_ns) m = false
  end.

Lemma swept_sweep_ok s t now : swept s t -> t <= now -> sweep_ok Sql now s.
Proof.
  intros [S0 [S1 S2]] Ht. unfold sweep_ok.
  destruct (sql_sweep_due now (last_sweep s)) eqn:Ed; [left; reflexivity|]. right.
  intros m Hm. unfold expired. destruct (is_leased m) eqn:Il; [|reflexivity]. cbn [andb].
  apply Z.leb_gt. specialize (S2 m Hm Il). unfold sql_sweep_due in Ed. apply negb_false_iff in Ed. apply Z.ltb_lt in Ed. lia.
Qed.

Lemma offered_bounds fl c now route target o s s' m :
  Inv s -> sweep_ok fl now s -> In m (msgs s) ->
  (forall y, In y (msgs s) -> has_id (m_id y) s' = match prune_pm c now (o_gone o) s y with Some _ => true | None => false end) ->
  let matches := opt_match route (m_route m) && opt_match target (m_target m) && has_id (m_id m) s' in
  (matches && (dueb now m || expired (now - sql_sweep_interval_ns) m) = true -> offered fl c now route target o s m = true)
  /\ (offered fl c now route target o s m = true -> matches && (dueb now m || expired now m) = true).
Proof.
  intros I Hsw Hm Hsurv. cbv zeta. rewrite (Hsurv m Hm). unfold offered, deq_pre_pm, pm_comp.
  destruct (prune_pm c now (o_gone o) s m) as [m1|] eqn:Ep.
  2:{ rewrite !andb_false_r. split; intros H; discriminate. }
  apply prune_pm_same in Ep. subst m1. rewrite andb_true_r.
  assert (Hready : forall y, ready now route target y = opt_match route (m_route y) && opt_match target (m_target y) && dueb now y).
  { intros y. unfold ready, dueb. destruct (queuedb y), (opt_match route (m_route y)), (opt_match target (m_target y)); reflexivity. }
  destruct (match fl with Mem => true | Sql => sql_sweep_due now (last_sweep s) end) eqn:Esw.
  - unfold pm_sweep. destruct (expired now m) eqn:Ee.
    + rewrite Hready. cbn [release upd m_route m_target]. unfold dueb, queuedb. cbn [release upd m_st m_next st_eqb].
      rewrite Z.leb_refl. cbn [andb]. rewrite !orb_true_r, !andb_true_r.
      split; intros H; [|exact H]. apply andb_true_iff in H. apply H.
    + rewrite Hready, orb_false_r. split; [|intros H; exact H].
      intros H. apply andb_true_iff in H. destruct H as [Hmt Hd]. rewrite Hmt. cbn [andb].
      apply orb_true_iff in Hd. destruct Hd as [Hd | Hd]; [exact Hd|].
      apply (expired_earlier now _ m sweep_interval_nonneg) in Hd. congruence.
  - rewrite Hready. split.
    + intros H. apply andb_true_iff in H. destruct H as [Hmt Hd]. rewrite Hmt. cbn [andb].
      apply orb_true_iff in Hd. destruct Hd as [Hd | Hd]; [exact Hd|].
      destruct fl; [discriminate|]. destruct Hsw as [Hsw | Hsw]; [congruence|]. rewrite (Hsw m Hm) in Hd. discriminate.
    + intros H. apply andb_true_iff in H. destruct H as [Hmt Hd]. rewrite Hmt, Hd. reflexivity.
Qed.

Lemma c05_dequeue fl c now route target batch ttl o s s' items :
  Inv s -> sweep_ok fl now s -> step_dequeue fl c now route target batch ttl o s = (s', RItems items) ->
  c05_event (mkEvent (Dequeue now route target batch ttl) o (RItems items) (msgs s) (msgs s')) = true.
Proof.
  intros I Hsw H.
  destruct (dequeue_sound fl c now route target batch ttl o s s' items I H) as [_ [_ [Len Hall]]]. cbv zeta in Len, Hall.
  assert (Hafter : msgs s' = apply_pm (pm_lease now (eff_ttl ttl) (o_picked o)) (msgs (deq_pre fl c now o s))).
  { rewrite step_dequeue_eq in H. cbv zeta in H. destruct (valid_pick _ _ _ _ _ _ _); inversion H; reflexivity. }
  assert (Hsurv : forall y, In y (msgs s) ->
            has_id (m_id y) (msgs s') = match prune_pm c now (o_gone o) s y with Some _ => true | None => false end).
  { intros y Hy. rewrite Hafter. apply dequeue_survives; assumption. }
  rewrite deq_pre_msgs, filter_apply_pm_length in Len. fold (offered fl c now route target o s) in Len.
  unfold c05_event. cbn [ev_op ev_res ev_before ev_after]. rewrite Len.
  apply andb_true_iff. split; [apply andb_true_iff; split|].
  - apply Z.leb_le, Z.min_le_compat_l, Nat2Z.inj_le, filter_len_le. intros y Hy.
    apply (proj1 (offered_bounds fl c now route target o s (msgs s') y I Hsw Hy Hsurv)).
  - apply Z.leb_le, Z.min_le_compat_l, Nat2Z.inj_le, filter_len_le. intros y Hy.
    apply (proj2 (offered_bounds fl c now route target o s (msgs s') y I Hsw Hy Hsurv)).
  - apply forallb_forall. intros i Hi. unfold item_ids in Hi. cbn [deq_items] in Hi. apply in_map_iff in Hi.
    destruct Hi as [[[[i0 lid] att] un] [Ei Hit]]. cbn [fst] in Ei. subst i0.
    destruct (Hall i lid att un Hit) as [m0 [F [Rd _]]].
    destruct (deq_ready_origin fl c now route target o s i m0 I F Rd) as [m [Fb [_ Hb]]].
    rewrite Fb. apply andb_true_iff in Hb. apply Hb.
Qed.
