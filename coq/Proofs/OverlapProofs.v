(** Soundness of the overlap monitor (Model/Overlap.v) against Model/Queue.v: a linearizable history
    never makes it fire.  The two alarms that compare two dequeues [a], [b] of one message are refuted
    the same way.  [between_dequeues] cuts the linearization at [a] and [b]: after [a] the message holds
    [a]'s lease ([holds_until]) and attempt ([attempt_is]); at [b] any lease of it has run out and its
    attempt is one less than [b] returned.  In between the lease is kept, growing with every good extend,
    until a call that the monitor accepts as an excuse ([lease_kept_or_ended]), and the attempt is kept
    while no call names the message ([attempt_kept]). *)
From Coq Require Import List ZArith NArith Bool Lia Permutation.
From HK Require Import Model.Queue Model.QueueMon Model.Overlap Proofs.ListFacts Proofs.QueueBase
  Proofs.QueueInv Proofs.QueueInvStep Proofs.QueueStep Proofs.QueueLease Proofs.QueueFence Proofs.QueueTrace.
Import ListNotations.
Open Scope Z_scope.

(** the recorded call [k] is the model operation [x] (run with oracle [o]) and the model's answer
    [r] is what was recorded *)
Definition matches (k : call) (x : op) (o : oracle) (r : res) : Prop :=
  h_call k <= h_ret k /\ h_now k = op_now x /\
  match x with
  | Dequeue _ _ _ _ _ => h_kind k = HDeq /\ r = RItems (h_items k)
  | LeaseOp _ kd _ =>
      h_leases k = presented x /\ h_ok k = res_ok r /\
      match kd with
      | KAck => h_kind k = HAck
      | KNack _ => h_kind k = HNack
      | KDead _ => h_kind k = HDead
      | KExtend b => h_kind k = HExtend /\ h_by k = b
      end
  | LeaseBatch _ _ _ => h_kind k = HBatch /\ h_leases k = presented x
  | Manage _ MCancel ids =>
      h_kind k = HCancel /\ h_ids k = norm_ids ids [] /\
      h_ok k = match r with RCount n _ _ => 0 <? n | _ => false end
  | Manage _ _ _ => h_kind k = HRequeue \/ h_kind k = HOther
  | ManageF _ MCancel _ => h_kind k = HCancelF
  | ManageF _ _ _ => h_kind k = HRequeue \/ h_kind k = HOther
  | Enqueue _ _ | EnqueueBatch _ _ =>
      h_kind k = HEnqueue /\
      forall ies, assign_ids (enq_list x) (o_genids o) = Some ies -> incl (map fst ies) (h_ids k)
  | _ => h_kind k = HOther
  end.

Definition lstep := (call * (op * oracle))%type.

Fixpoint lin_end (fl : flavour) (c : cfg) (s : state) (l : list lstep) : state :=
  match l with
  | [] => s
  | (_, (x, o)) :: tl => lin_end fl c (fst (step fl c s x o)) tl
  end.

(** executing the calls in this order on Model/Queue.step yields the recorded results *)
Fixpoint lin_run (fl : flavour) (c : cfg) (s : state) (l : list lstep) : Prop :=
  match l with
  | [] => True
  | (k, (x, o)) :: tl => matches k x o (snd (step fl c s x o)) /\ lin_run fl c (fst (step fl c s x o)) tl
  end.

(** the order extends real time: nobody is placed after a call that was issued after he returned *)
Definition rt_ok (l : list call) : Prop := ForallOrdPairs (fun x y => ~ (h_ret y < h_call x)) l.

(** [h] is linearizable with respect to the queue specification: some total order of its calls
    extends the real-time order and, executed in that order by the model from a reachable state
    (the model state after an arbitrary earlier history [pre]), returns the recorded results; the
    dequeues' choices are arbitrary valid oracles (a dequeue step answers [RItems] only for a valid
    oracle).  Stamps come from one counter: call stamps are pairwise different. *)
Definition linearizable (fl : flavour) (c : cfg) (h : history) : Prop :=
  NoDup (map h_call h) /\
  exists (pre : list (op * oracle)) (l : list lstep),
    Permutation h (map fst l) /\ rt_ok (map fst l) /\ lin_run fl c (snd (run fl c init pre)) l.

(** Up to [step_attempt]: facts about Model/Queue.v alone (no recorded call in them) that only the overlap
    argument needs - what one step does to the lease and to the attempt of one stored message. *)
Lemma selected_count k nids l m :
  In m l -> memN (m_id m) nids = true -> allowed_from k (m_st m) = true ->
  0 < Z.of_nat (length (selected k nids l)).
Proof.
  intros Hm A B.
  assert (Hin : In m (selected k nids l)) by (apply filter_In; rewrite A, B; auto).
  destruct (selected k nids l); [destruct Hin | simpl; lia].
Qed.

Definition holds_until (s : state) (i L : N) (u : Z) : Prop :=
  exists m, find_id i (msgs s) = Some m /\ m_lease m = Some L /\ u <= m_until m.

Lemma dequeue_holds {fl c now route target batch ttl o s s' items i lid att un} :
  Inv s -> step_dequeue fl c now route target batch ttl o s = (s', RItems items) ->
  In (i, lid, att, un) items -> holds_until s' i lid un.
Proof.
  intros I H Hit. destruct (dequeued_item fl c now route target batch ttl o s s' items i lid att un I H Hit)
    as [_ [lv [_ [_ [F [L [_ [Eu _]]]]]]]].
  exists lv. split; [exact F|]. split; [exact L | lia].
Qed.

Lemma dequeue_lease_over {fl c now route target batch ttl o s s' items i L u} :
  Inv s -> step_dequeue fl c now route target batch ttl o s = (s', RItems items) ->
  In i (map (fun it => fst (fst (fst it))) items) -> holds_until s i L u -> u <= now.
Proof.
  intros I H Hi [m [F [E Hu]]]. destruct (find_id_Some _ _ _ F) as [Hm Ei].
  destruct (Z.lt_ge_cases now u) as [Hlt | Hge]; [exfalso | exact Hge].
  apply (dequeue_never_returns_unavailable fl c now route target batch ttl o s s' items m I H Hm).
  - unfold unavailable. rewrite (is_leased_st m (lease_is_leased m L (inv_coh _ _ I m Hm) E)). apply Z.ltb_lt. lia.
  - rewrite Ei. exact Hi.
Qed.

(** the step [x] with answer [r] ends the lease [L], running until [until], of message [i] *)
Inductive ends_lease (x : op) (r : res) (i L : N) (until : Z) : Prop :=
| el_expired : until <= op_now x -> releases x = true -> ends_lease x r i L until
| el_settled : forall k, In L (presented x) -> res_ok r = true -> lease_op_kind x = Some k -> is_extend k = false ->
               ends_lease x r i L until
| el_cancel : forall now idl, x = Manage now MCancel idl -> In i (norm_ids idl []) ->
              match r with RCount n _ _ => 0 <? n | _ => false end = true -> ends_lease x r i L until
| el_cancel_f : forall now f, x = ManageF now MCancel f -> ends_lease x r i L until.

(** operator mutations by id, computed directly: the [change] relation does not say which ids an
    operation named, nor how many messages it changed *)
Lemma step_manage_fate now k idl s i m L u :
  Inv s -> find_id i (msgs s) = Some m -> m_st m = Leased ->
  find_id i (msgs (fst (step_manage now k idl s))) = Some m
  \/ ends_lease (Manage now k idl) (snd (step_manage now k idl s)) i L u.
Proof.
  intros I F Es. destruct (find_id_Some _ _ _ F) as [Hm Ei].
  unfold step_manage. cbn [fst snd msgs set_msgs].
  rewrite find_id_apply_pm; [|apply imm_pres_id_pres; apply pm_manage_imm | apply I].
  rewrite F. unfold pm_manage. rewrite Ei, Es.
  destruct (memN i (norm_ids idl [])) eqn:Mi; [|left; reflexivity].
  destruct k; try (left; reflexivity).
  right. apply el_cancel with now idl; [reflexivity | apply memN_In; exact Mi|].
  apply Z.ltb_lt. apply (selected_count MCancel _ _ m Hm); [rewrite Ei; exact Mi | rewrite Es; reflexivity].
Qed.

Lemma step_lease_fate fl c s x o s' r i m L :
  Inv s -> step fl c s x o = (s', r) -> find_id i (msgs s) = Some m -> m_lease m = Some L ->
  (exists m', find_id i (msgs s') = Some m' /\ m_lease m' = Some L /\ m_until m <= m_until m')
  \/ ends_lease x r i L (m_until m).
Proof.
  intros I H F E.
  destruct (find_id_Some _ _ _ F) as [Hm Ei].
  pose proof (is_leased_st m (lease_is_leased m L (inv_coh _ _ I m Hm) E)) as Es.
  assert (Exp : forall now, expired now m = true -> m_until m <= now).
  { intros now He. unfold expired in He. apply andb_true_iff in He. apply Z.leb_le. apply He. }
  pose proof (step_sound fl c s x o s' r I H) as SS.
  pose proof (step_inv_eq fl c s x o s' r I H) as I'.
  destruct (spec_fate c x o r (msgs s) (msgs s') m (inv_nodup _ _ I) SS Hm) as [[m' [Hm' Ch]] | Rm].
  - assert (Fi : find_id i (msgs s') = Some m').
    { destruct (change_same_imm c x r m m' Ch) as [Eid _]. rewrite <- Ei, Eid.
      apply find_id_In_NoDup; [apply I' | exact Hm']. }
    destruct Ch as [-> | Hr He _ _ | route target b ttl lid m0 Ex H0 Hrd _ _ _ | k lid Hk Hp Hl _ _ Hok Hne Ef | k Hk Ha _ _].
    + left. exists m. split; [exact Fi|]. split; [exact E | lia].
    + right. apply el_expired; [apply Exp; exact He | exact Hr].
    + destruct H0 as [-> | [He _]].
      * unfold ready, queuedb in Hrd. rewrite Es in Hrd. discriminate.
      * right. apply el_expired; [apply Exp; exact He | rewrite Ex; reflexivity].
    + assert (lid = L) by congruence. subst lid.
      destruct (is_extend k) eqn:Ek.
      * destruct k as [| |by_|]; try discriminate Ek. left. exists m'. split; [exact Fi|].
        injection Ef as <-. split; [exact E|]. apply Z.leb_gt in Hne. simpl. lia.
      * right. apply el_settled with k; assumption.
    + (* an operator mutation; only a cancel touches a leased message *)
      rewrite Es in Ha. destruct k; try discriminate Ha.
      destruct x as [| | | | |now mk idl|now mk f| | | | |]; try discriminate Hk; cbn in Hk.
      * cbn [step] in H.
        destruct (step_manage_fate now mk idl s i m L (m_until m) I F Es) as [K | K]; rewrite H in K; [|right; exact K].
        left. exists m. split; [exact K|]. split; [exact E | lia].
      * destruct (f_preview f); [discriminate|]. injection Hk as ->.
        right. apply el_cancel_f with now f. reflexivity.
  - destruct Rm as [lid Hk Hp Hl _ _ Hok _ | _ Hd _ | _ [Hn _] | _ _ _ Hq].
    + assert (lid = L) by congruence. subst lid.
      right. apply el_settled with KAck; [exact Hp | exact Hok | exact Hk | reflexivity].
    + congruence.
    + unfold is_leased in Hn. rewrite Es in Hn. discriminate.
    + unfold queuedb in Hq. rewrite Es in Hq. discriminate.
Qed.

Lemma step_extend_exact fl c s now by_ p o s' r i m m' L :
  Inv s -> step fl c s (LeaseOp now (KExtend by_) (LKnown L p)) o = (s', r) -> res_ok r = true -> 0 < by_ ->
  find_id i (msgs s) = Some m -> m_lease m = Some L -> find_id i (msgs s') = Some m' ->
  m_until m' = m_until m + by_.
Proof.
  intros I H Hok Hby F E F'. cbn [step] in H.
  assert (Hn : is_noop_extend (KExtend by_) = false) by (apply Z.leb_gt; exact Hby).
  destruct (lease_op_fenced fl c now (KExtend by_) L p s s' r I Hn H) as [pm [El Hc]].
  destruct (find_id_Some _ _ _ F) as [Hm Ei]. destruct (find_id_Some _ _ _ F') as [Hm' Ei'].
  rewrite El in Hm'. apply apply_pm_In in Hm'. destruct Hm' as [y [Hy Ey]].
  destruct (current now L (msgs s)) as [mc|] eqn:Ec.
  - destruct Hc as [_ [Hpm Hoth]]. apply current_spec in Ec. destruct Ec as [Hmc [Lmc _]].
    assert (mc = m) by (apply (inv_linj _ _ I mc m L); assumption). subst mc.
    destruct (N.eq_dec (m_id y) i) as [Eq | Ne].
    + assert (y = m) by (apply (nodup_ids_inj (msgs s)); [apply I | exact Hy | exact Hm | congruence]). subst y.
      rewrite Hpm in Ey. injection Ey as <-. reflexivity.
    + (* another message is left as it is, and does not carry the id [i] *)
      rewrite (Hoth y Hy) in Ey; [injection Ey as ->; contradiction | congruence].
  - destruct Hc as [[-> | ->] _]; discriminate Hok.
Qed.

Definition attempt_is (i : N) (att : Z) (s : state) : Prop :=
  forall m, find_id i (msgs s) = Some m -> m_attempt m = att.

Lemma dequeue_attempt {fl c now route target batch ttl o s s' items i lid att un} :
  Inv s -> step_dequeue fl c now route target batch ttl o s = (s', RItems items) ->
  In (i, lid, att, un) items ->
  attempt_is i att s' /\ forall att0, attempt_is i att0 s -> att = att0 + 1.
Proof.
  intros I H Hit. destruct (dequeued_item fl c now route target batch ttl o s s' items i lid att un I H Hit)
    as [m [lv [Fm [Ea [F [_ [_ [_ Alv]]]]]]]]. split.
  - intros m1 F1. rewrite F in F1. injection F1 as <-. exact Alv.
  - intros att0 A. rewrite <- (A m Fm). exact Ea.
Qed.

(** a message that is gone comes back only through an enqueue that is given its id *)
Lemma step_attempt fl c s x o i att :
  Inv s -> ~ In i (item_ids (snd (step fl c s x o))) ->
  (forall ies, assign_ids (enq_list x) (o_genids o) = Some ies -> ~ In i (map fst ies)) ->
  attempt_is i att s -> attempt_is i att (fst (step fl c s x o)).
Proof.
  intros I Hd He A m' F'. destruct (find_id_Some _ _ _ F') as [Hm' Ei'].
  destruct (step_sound fl c s x o _ _ I (surjective_pairing _)) as [pm [news [El [P Nw]]]].
  rewrite El in Hm'. apply in_app_or in Hm'. destruct Hm' as [Hm' | Hm'].
  - apply apply_pm_In in Hm'. destruct Hm' as [m [Hm Ep]]. specialize (P m Hm). rewrite Ep in P.
    destruct (change_same_imm c x _ m m' P) as [Eid _].
    rewrite (change_attempt c x _ m m' P); [|rewrite Eid, Ei'; exact Hd].
    apply A. rewrite <- Ei', <- Eid. apply find_id_In_NoDup; [apply I | exact Hm].
  - exfalso. destruct Nw as [-> | [_ [ies [Ea ->]]]]; [destruct Hm'|].
    apply in_map_iff in Hm'. destruct Hm' as [p [Ep Hp]]. apply (He ies Ea).
    apply in_map_iff. exists p. split; [subst m'; exact Ei' | exact Hp].
Qed.

Lemma lin_end_app fl c s l1 l2 : lin_end fl c s (l1 ++ l2) = lin_end fl c (lin_end fl c s l1) l2.
Proof. revert s. induction l1 as [|[k [x o]] tl IH]; intros s; simpl; [reflexivity | apply IH]. Qed.

Lemma lin_run_app fl c s l1 l2 :
  lin_run fl c s (l1 ++ l2) <-> lin_run fl c s l1 /\ lin_run fl c (lin_end fl c s l1) l2.
Proof.
  revert s. induction l1 as [|[k [x o]] tl IH]; intros s; simpl; [tauto|].
  rewrite IH. tauto.
Qed.

Lemma lin_end_ind fl c (P : state -> Prop) :
  (forall s x o, P s -> P (fst (step fl c s x o))) -> forall l s, P s -> P (lin_end fl c s l).
Proof. intros Hstep. induction l as [|[k [x o]] tl IH]; intros s H; simpl; [exact H|]. apply IH, Hstep, H. Qed.

Lemma lin_inv fl c l s : Inv s -> Inv (lin_end fl c s l).
Proof. apply lin_end_ind. apply step_inv. Qed.

Lemma lin_run_wf fl c : forall l s, lin_run fl c s l -> forall k, In k (map fst l) -> h_call k <= h_ret k.
Proof.
  induction l as [|[k0 [x o]] tl IH]; intros s R k Hk; [destruct Hk|].
  destruct R as [[W _] R]. destruct Hk as [<- | Hk]; [exact W | exact (IH _ R k Hk)].
Qed.

Lemma lin_pick fl c l s0 a :
  Inv s0 -> lin_run fl c s0 l -> In a (map fst l) ->
  exists l1 x o l2,
    l = l1 ++ (a, (x, o)) :: l2 /\ lin_run fl c s0 l1 /\ Inv (lin_end fl c s0 l1)
    /\ matches a x o (snd (step fl c (lin_end fl c s0 l1) x o))
    /\ lin_run fl c (fst (step fl c (lin_end fl c s0 l1) x o)) l2.
Proof.
  intros I R Ha. apply in_map_iff in Ha. destruct Ha as [[a' [x o]] [Ea Hin]]. cbn in Ea. subst a'.
  destruct (in_split _ _ Hin) as [l1 [l2 ->]]. apply lin_run_app in R. destruct R as [R1 [M R2]].
  exists l1, x, o, l2. split; [reflexivity|]. split; [exact R1|]. split; [apply lin_inv; exact I|].
  split; [exact M | exact R2].
Qed.

(* [inN] of Model/Overlap.v and [memN] of Model/Queue.v are the same test *)
Lemma inN_In x l : inN x l = true <-> In x l.
Proof. exact (memN_In x l). Qed.

Lemma deq_kind k : hkind_eqb (h_kind k) HDeq = true -> h_kind k = HDeq.
Proof. destruct (h_kind k); simpl; intros E; try discriminate; reflexivity. Qed.

Lemma good_extend_spec L e :
  is_good_extend L e = true -> h_kind e = HExtend /\ h_ok e = true /\ 0 < h_by e /\ In L (h_leases e).
Proof.
  unfold is_good_extend. destruct (h_kind e); simpl; try discriminate.
  destruct (h_ok e); [|discriminate]. destruct (0 <? h_by e) eqn:E; [|discriminate].
  intros H. apply Z.ltb_lt in E. apply inN_In in H. auto.
Qed.

Lemma matches_deq k x o r :
  h_kind k = HDeq -> matches k x o r ->
  exists route target b ttl, x = Dequeue (h_now k) route target b ttl /\ r = RItems (h_items k).
Proof.
  intros Hk [_ [Hn M]]. rewrite Hk in M.
  destruct x as [| |now route target b ttl|now kd lr| |now mk idl|now mk f| | | | |]; cbn [op_now] in Hn.
  (* every operation but [Dequeue] is recorded under another kind *)
  all: try solve [exfalso; try destruct kd; try destruct mk; intuition discriminate].
  destruct M as [_ Er]. subst now. exists route, target, b, ttl. split; [reflexivity | exact Er].
Qed.

Lemma matches_good_extend L k x o r :
  is_good_extend L k = true -> matches k x o r ->
  exists p, x = LeaseOp (h_now k) (KExtend (h_by k)) (LKnown L p) /\ res_ok r = true.
Proof.
  intros G [_ [Hn M]]. destruct (good_extend_spec L k G) as [Hk [Hok [_ HL]]]. rewrite Hk in M.
  destruct x as [| | |now kd lr| |now mk idl|now mk f| | | | |]; cbn [op_now] in Hn.
  all: try solve [exfalso; try destruct mk; intuition discriminate].
  (* a lease operation: an extend by the recorded amount, on the one lease id it presents *)
  destruct M as [Hl [Ho M]]. destruct kd as [| d | by_ | rs]; try discriminate M.
  destruct M as [_ Eb]. subst now by_. rewrite Hl in HL.
  destruct lr as [l0 p| |]; simpl in HL; try contradiction. destruct HL as [<- | []].
  exists p. rewrite <- Ho. auto.
Qed.

Lemma lin_deq fl c s k x o :
  matches k x o (snd (step fl c s x o)) -> h_kind k = HDeq ->
  exists route target batch ttl,
    step_dequeue fl c (h_now k) route target batch ttl o s = (fst (step fl c s x o), RItems (h_items k)).
Proof.
  intros M Hk. destruct (matches_deq k x o _ Hk M) as [route [target [b [ttl [-> Er]]]]].
  exists route, target, b, ttl. cbn [step] in *. rewrite <- Er. apply surjective_pairing.
Qed.

Lemma matches_items fl c s k x o :
  matches k x o (snd (step fl c s x o)) -> deq_items (snd (step fl c s x o)) = deq_items_of k.
Proof.
  intros M. unfold deq_items_of. destruct (hkind_eqb (h_kind k) HDeq) eqn:Ek.
  - apply deq_kind in Ek. destruct (matches_deq k x o _ Ek M) as [_ [_ [_ [_ [_ Er]]]]]. rewrite Er. reflexivity.
  - destruct (step_issued fl c s x o) as [[_ Hn] | [now [route [target [batch [ttl [Ex _]]]]]]].
    + apply map_eq_nil in Hn. exact Hn.
    + subst x. destruct M as [_ [_ [K _]]]. rewrite K in Ek. discriminate.
Qed.

(** [release_capable], with the lease end as a parameter *)
Definition can_end (m l : N) (e : Z) (r : call) : bool :=
  match h_kind r with
  | HCancelF => true
  | HCancel => if h_ok r then inN m (h_ids r) else false
  | HBatch => if inN l (h_leases r) then true else e <=? h_now r
  | HAck | HNack | HDead =>
      if (if h_ok r then inN l (h_leases r) else false) then true else e <=? h_now r
  | HDeq | HExtend => e <=? h_now r
  | _ => false
  end.

Lemma release_capable_can_end exts m l un a r :
  release_capable exts m l un a r = can_end m l (lease_end exts l un a r) r.
Proof. reflexivity. Qed.

Lemma can_end_mono m l e e' r : e' <= e -> can_end m l e r = true -> can_end m l e' r = true.
Proof.
  intros Hle. assert (Hb : (e <=? h_now r) = true -> (e' <=? h_now r) = true) by (rewrite !Z.leb_le; lia).
  unfold can_end. destruct (h_kind r), (h_ok r), (inN l (h_leases r)); auto.
Qed.

Lemma matches_ends k x o r i L u : matches k x o r -> ends_lease x r i L u -> can_end i L u k = true.
Proof.
  intros [_ [Hn M]] [Hu Hr | kd Hp Hok Hk Hne | now idl -> Hin Hpos | now f ->]; unfold can_end.
  - rewrite <- Hn in Hu. apply Z.leb_le in Hu.
    assert (Hor : forall b : bool, (if b then true else u <=? h_now k) = true) by (intros []; [reflexivity | exact Hu]).
    destruct x as [| |now route target b ttl|now kd lr|now kd ls| | | | | | |]; try discriminate Hr.
    + destruct M as [-> _]. exact Hu.
    + destruct M as [_ [_ M]]. destruct kd; [| |destruct M as [M _]|]; rewrite M; try apply Hor. exact Hu.
    + destruct M as [-> _]. apply Hor.
  - apply inN_In in Hp.
    destruct x as [| | |now kd' lr|now kd' ls| | | | | | |]; try discriminate Hk; injection Hk as <-.
    + destruct M as [Hl [Ho M]]. destruct kd'; try discriminate Hne; rewrite M, Ho, Hok, Hl, Hp; reflexivity.
    + destruct M as [-> Hl]. rewrite Hl, Hp. reflexivity.
  - destruct M as [-> [-> ->]]. rewrite Hpos. apply inN_In. exact Hin.
  - cbn in M. rewrite M. reflexivity.
Qed.

(** the test inside [disturbs] *)
Definition names (i : N) (k : call) : bool :=
  match h_kind k with
  | HDeq => inN i (map it_id (h_items k))
  | HEnqueue => inN i (h_ids k)
  | _ => false
  end.

Lemma matches_unnamed fl c s k x o i :
  matches k x o (snd (step fl c s x o)) -> names i k = false ->
  ~ In i (item_ids (snd (step fl c s x o)))
  /\ (forall ies, assign_ids (enq_list x) (o_genids o) = Some ies -> ~ In i (map fst ies)).
Proof.
  intros M U. unfold names in U. split.
  - unfold item_ids. rewrite (matches_items fl c s k x o M). unfold deq_items_of. intros Hin.
    destruct (h_kind k); simpl in Hin; try contradiction.
    apply (inN_In i (map it_id (h_items k))) in Hin. congruence.
  - intros ies Ea Hin. destruct M as [_ [_ M]].
    destruct x as [now e|now es| | | | | | | | | |].
    1,2: destruct M as [Mk Mi]; rewrite Mk in U; apply (Mi ies Ea), inN_In in Hin; congruence.
    all: cbn in Ea; injection Ea as <-; destruct Hin.
Qed.

Definition ext_amount (L : N) (e : call) : Z := if is_good_extend L e then h_by e else 0.
Definition extsum (L : N) (cs : list call) : Z := zsum (ext_amount L) cs.

Lemma extsum_cons L k cs : extsum L (k :: cs) = ext_amount L k + extsum L cs.
Proof. reflexivity. Qed.

Lemma holds_step fl c s k x o i L u :
  Inv s -> matches k x o (snd (step fl c s x o)) -> holds_until s i L u ->
  holds_until (fst (step fl c s x o)) i L (u + ext_amount L k) \/ can_end i L u k = true.
Proof.
  intros I M [m [F [E Hu]]].
  destruct (step_lease_fate fl c s x o _ _ i m L I (surjective_pairing _) F E) as [[m' [F' [E' Hu']]] | Hend].
  - left. exists m'. split; [exact F'|]. split; [exact E'|]. unfold ext_amount.
    destruct (is_good_extend L k) eqn:G; [|lia].
    destruct (matches_good_extend L k x o _ G M) as [p [-> Hok]].
    apply good_extend_spec in G. destruct G as [_ [_ [Hby _]]].
    rewrite (step_extend_exact fl c s _ _ p o _ _ i m m' L I (surjective_pairing _) Hok Hby F E F'). lia.
  - right. apply (can_end_mono i L (m_until m)); [exact Hu|]. exact (matches_ends k x o _ i L _ M Hend).
Qed.

Lemma lease_kept_or_ended fl c i L : forall l s u,
  Inv s -> lin_run fl c s l -> holds_until s i L u ->
  holds_until (lin_end fl c s l) i L (u + extsum L (map fst l))
  \/ (exists c1 r c2, map fst l = c1 ++ r :: c2 /\ can_end i L (u + extsum L c1) r = true).
Proof.
  induction l as [|[k [x o]] tl IH]; intros s u I R H.
  - left. cbn. rewrite Z.add_0_r. exact H.
  - destruct R as [M R]. cbn [lin_end map fst]. rewrite extsum_cons, Z.add_assoc.
    destruct (holds_step fl c s k x o i L u I M H) as [H' | Hend].
    + destruct (IH _ _ (step_inv fl c s x o I) R H') as [Kept | [c1 [r [c2 [Ec Hr]]]]]; [left; exact Kept|].
      right. exists (k :: c1), r, c2. rewrite Ec, extsum_cons, Z.add_assoc. split; [reflexivity | exact Hr].
    + right. exists [], k, (map fst tl). cbn. rewrite Z.add_0_r. split; [reflexivity | exact Hend].
Qed.

Lemma attempt_kept fl c i att : forall l s,
  Inv s -> lin_run fl c s l -> (forall k, In k (map fst l) -> names i k = false) ->
  attempt_is i att s -> attempt_is i att (lin_end fl c s l).
Proof.
  induction l as [|[k [x o]] tl IH]; intros s I R U A; [exact A|]. destruct R as [M R].
  destruct (matches_unnamed fl c s k x o i M (U k (or_introl eq_refl))) as [Hd He].
  apply IH; [apply step_inv; exact I | exact R | intros k0 Hk0; apply U; right; exact Hk0|].
  apply step_attempt; assumption.
Qed.

Lemma zsum_app f a b : zsum f (a ++ b) = zsum f a + zsum f b.
Proof. unfold zsum. induction a as [|x tl IH]; simpl; [reflexivity | rewrite IH; lia]. Qed.

Lemma zsum_perm f l l' : Permutation l l' -> zsum f l = zsum f l'.
Proof. unfold zsum. induction 1; simpl; lia. Qed.

Lemma zsum_le f g l : (forall e, In e l -> f e <= g e) -> zsum f l <= zsum g l.
Proof.
  unfold zsum. induction l as [|x tl IH]; simpl; intros H; [lia|].
  pose proof (H x (or_introl eq_refl)). pose proof (IH (fun e He => H e (or_intror He))). lia.
Qed.

Lemma zsum_zero f l : (forall e, In e l -> f e = 0) -> zsum f l = 0.
Proof.
  unfold zsum. induction l as [|x tl IH]; simpl; intros H; [reflexivity|].
  rewrite (H x (or_introl eq_refl)), (IH (fun e He => H e (or_intror He))). reflexivity.
Qed.

Lemma zsum_filter f p l : (forall e, p e = false -> f e = 0) -> zsum f (filter p l) = zsum f l.
Proof.
  intros H. unfold zsum. induction l as [|x tl IH]; simpl; [reflexivity|].
  destruct (p x) eqn:Ep; simpl; rewrite IH; [reflexivity|]. rewrite (H x Ep). reflexivity.
Qed.

Lemma ext_total_filter h L a x : ext_total (filter (is_good_extend L) h) L a x = ext_total h L a x.
Proof. apply zsum_filter. intros e Hp. unfold ext_counts. rewrite Hp. reflexivity. Qed.

Lemma rt_split (c1 : list call) x c2 :
  rt_ok (c1 ++ x :: c2) ->
  (forall y, In y c1 -> hb x y = false) /\ (forall y, In y c2 -> hb y x = false) /\ rt_ok c2.
Proof.
  unfold rt_ok, hb. induction c1 as [|z tl IH]; simpl; intros H; inversion H as [|? ? Hz Htl]; subst.
  - split; [intros y []|]. split; [|exact Htl].
    intros y Hy. apply Z.ltb_nlt. rewrite Forall_forall in Hz. apply Hz. exact Hy.
  - destruct (IH Htl) as [A [B Cc]]. split; [|split; assumption].
    intros y [<- | Hy]; [|apply A; exact Hy].
    apply Z.ltb_nlt. rewrite Forall_forall in Hz. apply Hz. apply in_elt.
Qed.

Lemma rt_after c1 a c2 b :
  rt_ok (c1 ++ a :: c2) -> h_call a <= h_ret a -> hb a b = true -> In b (c1 ++ a :: c2) -> In b c2.
Proof.
  intros RT Wa Hab Hb. destruct (rt_split c1 a c2 RT) as [Bef _].
  apply in_app_or in Hb. destruct Hb as [Hb | [<- | Hb]]; [| |exact Hb].
  - rewrite (Bef b Hb) in Hab. discriminate.
  - unfold hb in Hab. apply Z.ltb_lt in Hab. lia.
Qed.

Lemma rt_between c1 a mid b c2 k :
  rt_ok (c1 ++ a :: mid ++ b :: c2) -> In k mid -> may_be_between a b k = true.
Proof.
  intros RT Hk. destruct (rt_split c1 a _ RT) as [_ [Aft RT2]]. destruct (rt_split mid b c2 RT2) as [Bef _].
  unfold may_be_between. rewrite (Aft k), (Bef k Hk); [reflexivity|]. apply in_or_app. left. exact Hk.
Qed.

(** the extends that the monitor counts for [x] all lie between [a] and [x] in the linearization *)
Lemma ext_total_bound L c1 a mid x c2 :
  rt_ok (c1 ++ a :: mid ++ x :: c2) -> h_call a <= h_ret a -> h_call x <= h_ret x ->
  ext_total (c1 ++ a :: mid ++ x :: c2) L a x <= extsum L mid.
Proof.
  intros RT Wa Wx.
  destruct (rt_split c1 a _ RT) as [Bef [_ RT2]]. destruct (rt_split mid x c2 RT2) as [_ [Aft _]].
  unfold ext_total, extsum. set (f := fun e => if ext_counts L a x e then h_by e else 0).
  assert (Z0 : forall e, hb a e = false \/ hb e x = false -> f e = 0).
  { intros e H. unfold f, ext_counts. destruct (is_good_extend L e); [|reflexivity].
    destruct H as [-> | ->]; [|destruct (hb a e)]; reflexivity. }
  assert (Z1 : zsum f (c1 ++ [a]) = 0).
  { apply zsum_zero. intros e He. apply Z0. left. apply in_app_or in He.
    destruct He as [He | [<- | []]]; [apply Bef; exact He | apply Z.ltb_ge; exact Wa]. }
  assert (Z2 : zsum f (x :: c2) = 0).
  { apply zsum_zero. intros e He. apply Z0. right.
    destruct He as [<- | He]; [apply Z.ltb_ge; exact Wx | apply Aft; exact He]. }
  assert (Z3 : zsum f mid <= zsum (ext_amount L) mid).
  { apply zsum_le. intros e _. unfold f, ext_amount, ext_counts.
    destruct (is_good_extend L e) eqn:G; [|lia]. apply good_extend_spec in G.
    destruct (if hb a e then hb e x else false); lia. }
  replace (c1 ++ a :: mid ++ x :: c2) with ((c1 ++ [a]) ++ mid ++ x :: c2) by (rewrite <- app_assoc; reflexivity).
  rewrite (zsum_app f (c1 ++ [a])), (zsum_app f mid). lia.
Qed.

Lemma nodup_call_split (c1 : list call) a c2 k :
  NoDup (map h_call (c1 ++ a :: c2)) -> In k c1 \/ In k c2 -> same_call a k = false.
Proof.
  intros ND Hk. apply Z.eqb_neq. intros E. rewrite map_app in ND. cbn [map] in ND. apply NoDup_remove_2 in ND. apply ND.
  rewrite E. apply in_or_app. destruct Hk as [Hk | Hk]; [left | right]; apply in_map; exact Hk.
Qed.

Lemma disturbs_between m c1 a mid b c2 k :
  rt_ok (c1 ++ a :: mid ++ b :: c2) -> NoDup (map h_call (c1 ++ a :: mid ++ b :: c2)) -> In k mid ->
  disturbs m a b k = names m k.
Proof.
  intros RT ND Hk. unfold disturbs. rewrite (rt_between c1 a mid b c2 k RT Hk).
  rewrite (nodup_call_split c1 a _ k ND) by (right; apply in_or_app; left; exact Hk).
  rewrite app_comm_cons, app_assoc in ND.
  rewrite (nodup_call_split _ b c2 k ND) by (left; apply in_or_app; right; right; exact Hk).
  reflexivity.
Qed.

Lemma returns_spec m b : returns m b = true -> h_kind b = HDeq /\ In m (map it_id (h_items b)).
Proof.
  unfold returns. destruct (hkind_eqb (h_kind b) HDeq) eqn:E; [|discriminate]. intros H.
  split; [apply deq_kind; exact E | apply inN_In; exact H].
Qed.

Lemma between_dequeues fl c (l : list lstep) s0 a b m L att un :
  Inv s0 -> rt_ok (map fst l) -> lin_run fl c s0 l ->
  In a (map fst l) -> In b (map fst l) ->
  h_kind a = HDeq -> In (m, L, att, un) (h_items a) -> returns m b = true -> hb a b = true ->
  exists c1 mid c2 sa,
    map fst l = c1 ++ a :: map fst mid ++ b :: c2
    /\ Inv sa /\ lin_run fl c sa mid
    /\ holds_until sa m L un /\ attempt_is m att sa
    /\ (forall L' u, holds_until (lin_end fl c sa mid) m L' u -> u <= h_now b)
    /\ (forall att' lb att_b ub, attempt_is m att' (lin_end fl c sa mid) ->
          In (m, lb, att_b, ub) (h_items b) -> att_b = att' + 1).
Proof.
  intros I0 RT R Ha Hb Ka Hit Rb Hab.
  destruct (returns_spec m b Rb) as [Kb Hmb].
  pose proof (lin_run_wf fl c l s0 R a Ha) as Wa.
  destruct (lin_pick fl c l s0 a I0 R Ha) as [l1 [xa [oa [l2 [-> [_ [Ia [Ma R2]]]]]]]].
  rewrite map_app in *. cbn [map fst] in *.
  pose proof (rt_after _ _ _ _ RT Wa Hab Hb) as Hb2.
  destruct (lin_deq fl c _ a xa oa Ma Ka) as [ra [ta [ba [ttla Da]]]].
  pose proof (step_inv fl c _ xa oa Ia) as Ia'.
  destruct (lin_pick fl c l2 _ b Ia' R2 Hb2) as [mid [xb [ob [l3 [-> [Rmid [Ib [Mb _]]]]]]]].
  destruct (lin_deq fl c _ b xb ob Mb Kb) as [rb [tb [bb [ttlb Db]]]].
  exists (map fst l1), mid, (map fst l3), (fst (step fl c (lin_end fl c s0 l1) xa oa)).
  rewrite map_app. cbn [map fst].
  split; [reflexivity|]. split; [exact Ia'|]. split; [exact Rmid|].
  split; [exact (dequeue_holds Ia Da Hit)|]. split; [exact (proj1 (dequeue_attempt Ia Da Hit))|]. split.
  - intros L' u. exact (dequeue_lease_over Ib Db Hmb).
  - intros att' lb att_b ub A Hitb. exact (proj2 (dequeue_attempt Ib Db Hitb) att' A).
Qed.

Lemma double_lease_impossible fl c (l : list lstep) s0 a b m L att un :
  Inv s0 -> rt_ok (map fst l) -> lin_run fl c s0 l ->
  In a (map fst l) -> In b (map fst l) ->
  h_kind a = HDeq -> In (m, L, att, un) (h_items a) ->
  returns m b = true -> hb a b = true ->
  h_now b < lease_end (map fst l) L un a b ->
  exists r, In r (map fst l) /\ may_be_between a b r = true /\ release_capable (map fst l) m L un a r = true.
Proof.
  intros I0 RT R Ha Hb Ka Hit Rb Hab Live.
  pose proof (lin_run_wf fl c l s0 R) as WF. pose proof (WF a Ha) as Wa. pose proof (WF b Hb) as Wb.
  destruct (between_dequeues fl c l s0 a b m L att un I0 RT R Ha Hb Ka Hit Rb Hab)
    as [c1 [mid [c2 [sa [Ec [Ia [Rmid [Held [_ [Over _]]]]]]]]]].
  rewrite Ec in *. clear Ec.
  destruct (lease_kept_or_ended fl c m L mid sa un Ia Rmid Held) as [Kept | [ca [r [cb [Emid Hr]]]]].
  - (* still held when [b] runs, with an end that has not run out *)
    exfalso. apply Over in Kept.
    pose proof (ext_total_bound L c1 a (map fst mid) b c2 RT Wa Wb). unfold lease_end in Live. lia.
  - assert (Hmid : In r (map fst mid)) by (rewrite Emid; apply in_elt).
    assert (Hr_in : In r (c1 ++ a :: map fst mid ++ b :: c2)).
    { apply in_or_app. right. right. apply in_or_app. left. exact Hmid. }
    exists r. split; [exact Hr_in|]. split; [exact (rt_between c1 a _ b c2 r RT Hmid)|].
    rewrite release_capable_can_end. apply (can_end_mono m L _ _ r) with (2 := Hr).
    unfold lease_end. apply Z.add_le_mono_l.
    rewrite Emid, <- app_assoc in RT |- *. exact (ext_total_bound L c1 a ca r _ RT Wa (WF r Hr_in)).
Qed.

Lemma attempt_of_spec m b att :
  attempt_of m b = Some att -> exists lid un, In (m, lid, att, un) (h_items b).
Proof.
  unfold attempt_of. destruct (find _ (h_items b)) as [[[[i lid] a] un]|] eqn:F; [|discriminate].
  intros H. injection H as <-. apply find_some in F. destruct F as [Hin E]. apply N.eqb_eq in E. cbn in E. subst i.
  exists lid, un. exact Hin.
Qed.

Lemma attempt_impossible fl c (l : list lstep) s0 a b m L att un att_b :
  Inv s0 -> rt_ok (map fst l) -> NoDup (map h_call (map fst l)) -> lin_run fl c s0 l ->
  In a (map fst l) -> In b (map fst l) ->
  h_kind a = HDeq -> In (m, L, att, un) (h_items a) ->
  returns m b = true -> hb a b = true -> attempt_of m b = Some att_b ->
  (forall k, In k (map fst l) -> disturbs m a b k = false) ->
  att_b = att + 1.
Proof.
  intros I0 RT NDc R Ha Hb Ka Hit Rb Hab Hatt Hdist.
  destruct (between_dequeues fl c l s0 a b m L att un I0 RT R Ha Hb Ka Hit Rb Hab)
    as [c1 [mid [c2 [sa [Ec [Ia [Rmid [_ [Att [_ Next]]]]]]]]]].
  rewrite Ec in *.
  destruct (attempt_of_spec m b att_b Hatt) as [lb [ub Hitb]].
  apply (Next att lb att_b ub); [|exact Hitb].
  apply attempt_kept; [exact Ia | exact Rmid | | exact Att].
  intros k Hk. rewrite <- (disturbs_between m c1 a _ b c2 k RT NDc Hk).
  apply Hdist. apply in_or_app. right. right. apply in_or_app. left. exact Hk.
Qed.

Lemma lin_issued fl c : forall l s, lin_run fl c s l ->
  issued (lin_end fl c s l) = issued s ++ all_leases (map fst l).
Proof.
  induction l as [|[k [x o]] tl IH]; intros s R; simpl; [rewrite app_nil_r; reflexivity|].
  destruct R as [M R]. rewrite (IH _ R), step_handed_out. unfold item_leases. rewrite (matches_items fl c s k x o M).
  rewrite <- app_assoc. reflexivity.
Qed.

Lemma NoDup_tests l : NoDup l -> distinctN l = true /\ first_dup l = None.
Proof.
  induction 1 as [|x tl Hx _ [IH1 IH2]]; simpl; [split; reflexivity|].
  destruct (inN x tl) eqn:E; [apply inN_In in E; contradiction | split; assumption].
Qed.

Lemma first_some_None (A B : Type) (f : A -> option B) l :
  (forall x, In x l -> f x = None) -> first_some f l = None.
Proof.
  induction l as [|x tl IH]; simpl; intros H; [reflexivity|].
  rewrite (H x (or_introl eq_refl)). apply IH. intros y Hy. apply H. right. exact Hy.
Qed.

Lemma lease_end_perm h calls L un a x :
  Permutation h calls -> lease_end (filter (is_good_extend L) h) L un a x = lease_end calls L un a x.
Proof. intros P. unfold lease_end. rewrite ext_total_filter. f_equal. apply zsum_perm. exact P. Qed.

Lemma release_capable_perm h calls m L un a r :
  Permutation h calls ->
  release_capable (filter (is_good_extend L) h) m L un a r = release_capable calls m L un a r.
Proof. intros P. rewrite !release_capable_can_end, (lease_end_perm h calls L un a r P). reflexivity. Qed.

(** the linearization may start in any state that satisfies the invariant *)
Section FromState.
Variables (fl : flavour) (c : cfg) (s0 : state) (l : list lstep) (h : history).
Hypotheses (I0 : InvI s0) (P : Permutation h (map fst l)) (RT : rt_ok (map fst l))
  (ND : NoDup (map h_call h)) (R : lin_run fl c s0 l).

(** the lease ids handed out along the linearization are ids issued, which never repeat *)
Lemma dup_lease_none : dup_lease h = None.
Proof.
  destruct (lin_end_ind fl c InvI (step_invI fl c) l s0 I0) as [_ NDi].
  rewrite (lin_issued fl c l s0 R) in NDi. apply NoDup_app_r in NDi.
  apply (Permutation_NoDup (Permutation_sym (Permutation_flat_map _ P))) in NDi.
  unfold dup_lease, all_leases. rewrite (proj2 (NoDup_tests _ NDi)). reflexivity.
Qed.

Lemma shape_from_none a : In a h -> shape_from a = None.
Proof.
  intros Ha. apply (Permutation_in _ P) in Ha.
  unfold shape_from. destruct (hkind_eqb (h_kind a) HDeq) eqn:Ek; [|reflexivity]. apply deq_kind in Ek.
  destruct (lin_pick fl c l s0 a (proj1 I0) R Ha) as [l1 [x [o [l2 [_ [_ [Is [M _]]]]]]]].
  destruct (lin_deq fl c _ a x o M Ek) as [ro [t [b [ttl D]]]].
  destruct (dequeue_sound fl c _ _ _ _ _ _ _ _ _ Is D) as [NDa [_ [_ Hall]]].
  rewrite (proj1 (NoDup_tests (map it_id (h_items a)) NDa)). apply first_some_None. intros [[[i lid] att] un] Hit.
  destruct (Hall i lid att un Hit) as [m0 [_ [_ [_ [_ [_ [Hlt _]]]]]]].
  apply Z.ltb_lt in Hlt. cbn. rewrite Hlt. reflexivity.
Qed.

Lemma double_from_none a : In a h -> double_from h a = None.
Proof.
  intros Ha.
  unfold double_from. destruct (hkind_eqb (h_kind a) HDeq) eqn:Ek; [|reflexivity]. apply deq_kind in Ek.
  apply first_some_None. intros [[[m L] att] un] Hit. unfold double_item. cbn [it_id it_lease it_until fst snd].
  apply first_some_None. intros b Hb.
  destruct (returns m b) eqn:Rb; [|reflexivity].
  destruct (hb a b) eqn:Hab; [|reflexivity].
  rewrite (lease_end_perm h (map fst l) L un a b P).
  destruct (h_now b <? lease_end (map fst l) L un a b) eqn:Live; [|reflexivity]. apply Z.ltb_lt in Live.
  destruct (double_lease_impossible fl c l s0 a b m L att un (proj1 I0) RT R
              (Permutation_in _ P Ha) (Permutation_in _ P Hb) Ek Hit Rb Hab Live) as [r [Hr [Mb Rc]]].
  assert (Ex : excused h (filter (is_good_extend L) h) m L un a b = true).
  { apply existsb_exists. exists r. split; [apply (Permutation_in _ (Permutation_sym P) Hr)|].
    rewrite Mb, (release_capable_perm h (map fst l) m L un a r P). exact Rc. }
  rewrite Ex. reflexivity.
Qed.

Lemma attempt_from_none a : In a h -> attempt_from h a = None.
Proof.
  intros Ha.
  unfold attempt_from. destruct (hkind_eqb (h_kind a) HDeq) eqn:Ek; [|reflexivity]. apply deq_kind in Ek.
  apply first_some_None. intros [[[m L] att] un] Hit. unfold attempt_item. cbn [it_id it_attempt fst snd].
  apply first_some_None. intros b Hb.
  destruct (returns m b) eqn:Rb; [|reflexivity].
  destruct (hb a b) eqn:Hab; [|reflexivity].
  destruct (attempt_of m b) as [att_b|] eqn:Hatt; [|reflexivity].
  destruct (att_b =? att + 1) eqn:Eq; [reflexivity|].
  destruct (existsb (disturbs m a b) h) eqn:Ed; [reflexivity|].
  exfalso. apply Z.eqb_neq in Eq. apply Eq.
  apply (attempt_impossible fl c l s0 a b m L att un att_b (proj1 I0) RT
           (Permutation_NoDup (Permutation_map h_call P) ND) R
           (Permutation_in _ P Ha) (Permutation_in _ P Hb) Ek Hit Rb Hab Hatt).
  intros k Hk. apply (Permutation_in _ (Permutation_sym P)) in Hk.
  destruct (disturbs m a b k) eqn:Dk; [|reflexivity].
  rewrite <- Ed. symmetry. apply existsb_exists. exists k. split; assumption.
Qed.

Theorem overlap_check_sound cands : incl cands h -> overlap_check h cands = None.
Proof.
  intros Hin. unfold overlap_check. rewrite dup_lease_none.
  apply first_some_None. intros a Ha. apply Hin in Ha. unfold per_call.
  rewrite (shape_from_none a Ha), (double_from_none a Ha). apply attempt_from_none. exact Ha.
Qed.
End FromState.

Section NoFalseAlarm.
Variables (fl : flavour) (c : cfg) (h : history).
Hypothesis Lin : linearizable fl c h.

Theorem overlap_check_no_false_alarm cands : incl cands h -> overlap_check h cands = None.
Proof.
  destruct Lin as [ND [pre [l [P [RT R]]]]].
  apply (overlap_check_sound fl c (snd (run fl c init pre)) l h); try assumption.
  apply run_invI. split; [apply inv_init | constructor].
Qed.

Theorem overlap_monitor_no_false_alarm : overlap_violation h = None.
Proof. apply overlap_check_no_false_alarm. apply incl_refl. Qed.
End NoFalseAlarm.

Module OverlapExamples.
Definition cfg0 := mkCfg 0 false 0 0 0 0 0 0.
Definition o0 := mkOracle [] [] [] [].
Definition enq7 := mkEnq (Some 7%N) 1%N 1%N None None 5%N 0%N 0%N.

Definition k_enq := mkCall 1 2 100 HEnqueue [] 0 [7%N] true [].
Definition k_deqA := mkCall 3 4 200 HDeq [] 0 [] true [(7%N, 1%N, 1, 1200)].
Definition k_nack (cl rt : Z) := mkCall cl rt 300 HNack [1%N] 0 [] true [].
Definition k_deqB (cl rt : Z) := mkCall cl rt 300 HDeq [] 0 [] true [(7%N, 2%N, 2, 1300)].

Definition x_enq := (Enqueue 100 enq7, o0).
Definition x_deqA := (Dequeue 200 None None 1 1000, mkOracle [(7%N, 1%N)] [] [] []).
Definition x_nack := (LeaseOp 300 (KNack 0) (LKnown 1%N false), o0).
Definition x_deqB := (Dequeue 300 None None 1 1000, mkOracle [(7%N, 2%N)] [] [] []).

(** sequential: enqueue; dequeue a; nack; dequeue b *)
Definition h_seq : history := [k_enq; k_deqA; k_nack 5 6; k_deqB 7 8].

Lemma run_enq_deqA_nack_deqB cn rn cb rb :
  cn <= rn -> cb <= rb ->
  lin_run Mem cfg0 init [(k_enq, x_enq); (k_deqA, x_deqA); (k_nack cn rn, x_nack); (k_deqB cb rb, x_deqB)].
Proof.
  intros Hn Hb. cbn [lin_run]. unfold matches. repeat split; try assumption; try reflexivity; try (cbn; lia).
  intros ies H. injection H as <-. apply incl_refl.
Qed.

Example h_seq_linearizable : linearizable Mem cfg0 h_seq.
Proof.
  split; [repeat constructor; simpl; intuition discriminate|].
  exists [], [(k_enq, x_enq); (k_deqA, x_deqA); (k_nack 5 6, x_nack); (k_deqB 7 8, x_deqB)].
  split; [apply Permutation_refl|]. split; [unfold rt_ok; repeat constructor; simpl; lia|].
  apply run_enq_deqA_nack_deqB; lia.
Qed.

Example h_seq_passes : overlap_violation h_seq = None.
Proof. reflexivity. Qed.

(** concurrent: the nack was issued while dequeue b was in flight (issued after b, returned before
    b returned); recorded order b, nack; linearized as nack, b *)
Definition h_conc : history := [k_enq; k_deqA; k_deqB 5 8; k_nack 6 7].

Example h_conc_linearizable : linearizable Mem cfg0 h_conc.
Proof.
  split; [repeat constructor; simpl; intuition discriminate|].
  exists [], [(k_enq, x_enq); (k_deqA, x_deqA); (k_nack 6 7, x_nack); (k_deqB 5 8, x_deqB)].
  split; [apply perm_skip, perm_skip, perm_swap|]. split; [unfold rt_ok; repeat constructor; simpl; lia|].
  apply run_enq_deqA_nack_deqB; lia.
Qed.

Example h_conc_passes : overlap_violation h_conc = None.
Proof. reflexivity. Qed.

(** the monitor fires: b was issued after a had returned, got the same message while a's lease
    (until 1200) was live at b's phase time 300, and nothing that could end the lease was issued
    before b returned (the nack came after b had returned; no nack at all in the second history) *)
Definition h_bad_late_nack : history := [k_enq; k_deqA; k_deqB 5 6; k_nack 7 8].
Definition h_bad : history := [k_enq; k_deqA; k_deqB 5 6].

Example monitor_fires_late_nack : overlap_violation h_bad_late_nack = Some (WDouble 3 5 7%N 1%N).
Proof. reflexivity. Qed.

Example monitor_fires : overlap_violation h_bad = Some (WDouble 3 5 7%N 1%N).
Proof. reflexivity. Qed.

Example h_bad_not_linearizable : forall fl c, ~ linearizable fl c h_bad.
Proof.
  intros fl c Lin. pose proof (overlap_monitor_no_false_alarm fl c h_bad Lin) as H.
  rewrite monitor_fires in H. discriminate.
Qed.

(** an extend that had returned before b was issued keeps the lease live past the returned
    lease_until: b at phase time 1250 > 1200 is still flagged; without the extend it is an expiry *)
Definition k_ext := mkCall 5 6 300 HExtend [1%N] 500 [] true [].
Definition k_deqB_late (cl rt : Z) := mkCall cl rt 1250 HDeq [] 0 [] true [(7%N, 2%N, 2, 2250)].

Example monitor_counts_extends :
  overlap_violation [k_enq; k_deqA; k_ext; k_deqB_late 7 8] = Some (WDouble 3 7 7%N 1%N)
  /\ overlap_violation [k_enq; k_deqA; k_deqB_late 7 8] = None.
Proof. split; reflexivity. Qed.

Example monitor_fires_dup_lease :
  overlap_violation [k_deqA; mkCall 5 6 200 HDeq [] 0 [] true [(8%N, 1%N, 1, 1200)]] = Some (WDupLease 1%N).
Proof. reflexivity. Qed.

Example monitor_fires_attempt :
  overlap_violation [k_deqA; k_nack 5 6; mkCall 7 8 300 HDeq [] 0 [] true [(7%N, 2%N, 3, 1300)]]
  = Some (WAttempt 3 7 7%N 1 3).
Proof. reflexivity. Qed.
End OverlapExamples.
