(** C03 (concurrent part) - the overlap monitor that judges the recorded histories of the concurrent
    stress never fires on a history that is linearizable with respect to Model/Queue.v.
    Only theorem statements; proofs are [exact] of lemmas from Proofs/OverlapProofs.v. *)
From Coq Require Import List ZArith NArith Bool Permutation.
From HK Require Import Model.Queue Model.Overlap Proofs.QueueInv Proofs.OverlapProofs.
Import ListNotations.
Open Scope Z_scope.

(** Soundness, written out.  A history is linearizable when its call stamps are pairwise
    different and there are an earlier model history [pre] and an order [l] of the recorded calls,
    each paired with a model operation and an oracle (the dequeues' choices), such that [l] is a
    permutation of the history, nobody is placed after a call that was issued after he had returned
    ([rt_ok]), and running the operations in that order on [Model/Queue.step] from the state after
    [pre] answers every call with what was recorded for it ([lin_run] / [matches]: same kind, same
    phase time, same lease ids / message ids, same items - id, lease id, attempt, lease_until - for a
    dequeue, same success flag for a single lease operation or a cancel).  On every such history
    the monitor reports nothing: no double lease, no repeated lease id, no message twice in one
    answer, no lease_until in the past, no attempt step other than +1. *)
Theorem C03_overlap_monitor_no_false_alarm : forall (fl : flavour) (c : cfg) (h : history),
  (NoDup (map h_call h) /\
   exists (pre : list (op * oracle)) (l : list (call * (op * oracle))),
     Permutation h (map fst l)
     /\ ForallOrdPairs (fun x y => ~ (h_ret y < h_call x)) (map fst l)
     /\ lin_run fl c (snd (run fl c init pre)) l) ->
  overlap_violation h = None.
Proof. exact overlap_monitor_no_false_alarm. Qed.

(** The same for a shard: any sub-list of candidate dequeues examined against the whole history. *)
Theorem C03_overlap_check_no_false_alarm : forall (fl : flavour) (c : cfg) (h : history),
  linearizable fl c h -> forall cands : history, incl cands h -> overlap_check h cands = None.
Proof. exact overlap_check_no_false_alarm. Qed.

(** The heart of it, at Prop level: in a linearization, if dequeue [a] handed message [m] out under
    lease [L] until [un], dequeue [b] was issued after [a] had returned and also returned [m], and
    [L] (with the extends that had returned before [b] was issued) was still unexpired at [b]'s phase
    time, then some call that a linearization may place between them was able to end that lease:
    a successful ack/nack/mark-dead of [L], a batch settlement naming [L], a cancel that named [m]
    and canceled something, a cancel by filter, or a dequeue / lease operation whose phase time had
    reached the (extended) lease end. *)
Theorem C03_double_lease_needs_a_release : forall fl c (l : list (call * (op * oracle))) s0 a b m L att un,
  Inv s0 -> rt_ok (map fst l) -> lin_run fl c s0 l ->
  In a (map fst l) -> In b (map fst l) ->
  h_kind a = HDeq -> In (m, L, att, un) (h_items a) ->
  returns m b = true -> hb a b = true ->
  h_now b < lease_end (map fst l) L un a b ->
  exists r, In r (map fst l) /\ may_be_between a b r = true /\ release_capable (map fst l) m L un a r = true.
Proof. exact double_lease_impossible. Qed.

(** Non-vacuity, both ways: a concurrent history (a nack issued and returned while the second
    dequeue was in flight) is linearizable and passes; the histories in which the second dequeue
    returned before anything could end the first lease make the monitor fire, hence are not
    linearizable. *)
Theorem C03_overlap_hypothesis_satisfiable :
  linearizable Mem OverlapExamples.cfg0 OverlapExamples.h_conc
  /\ overlap_violation OverlapExamples.h_conc = None.
Proof. exact (conj OverlapExamples.h_conc_linearizable OverlapExamples.h_conc_passes). Qed.

Theorem C03_overlap_monitor_fires :
  overlap_violation OverlapExamples.h_bad = Some (WDouble 3 5 7%N 1%N)
  /\ overlap_violation OverlapExamples.h_bad_late_nack = Some (WDouble 3 5 7%N 1%N)
  /\ forall fl c, ~ linearizable fl c OverlapExamples.h_bad.
Proof.
  exact (conj OverlapExamples.monitor_fires (conj OverlapExamples.monitor_fires_late_nack OverlapExamples.h_bad_not_linearizable)).
Qed.

Print Assumptions C03_overlap_monitor_no_false_alarm.
Print Assumptions C03_overlap_check_no_false_alarm.
Print Assumptions C03_double_lease_needs_a_release.
Print Assumptions C03_overlap_hypothesis_satisfiable.
Print Assumptions C03_overlap_monitor_fires.
