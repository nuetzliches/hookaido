(** C12 - admission limits: depth and drop policy (this file, queue model); size limits and the
    rate limiter are in Properties/C12rl.v.
    Statements, each derived from Proofs/. *)
From Coq Require Import List ZArith NArith Bool.
From HK Require Import Model.Queue Model.QueueMon Proofs.QueueBase Proofs.QueueInv Proofs.QueueInvStep
  Proofs.QueueStep Proofs.QueueAdmit Proofs.QueueMonSound Proofs.QueueMonC02 Proofs.QueueMonC12.
Import ListNotations.
Open Scope Z_scope.

(** every refusal (full, duplicate id, memory pressure) leaves the queue exactly as it was - what the
    call's own retention prune removed aside: nothing is evicted, nothing stored, nothing touched *)
Theorem C12_refusal_frame : forall fl c now single es o s s' e,
  step_enqueue fl c now single es o s = (s', RErr e) -> s' = prune c now (o_gone o) s.
Proof.
  intros fl c now single es o s s' e H.
  pose proof (step_enqueue_cases _ _ _ _ _ _ _ _ _ H) as O.
  inversion O as [ | | e' Hne | ies l2 Hne EA Room ND Fr Es Er]; [reflexivity | destruct single; discriminate Er].
Qed.

(** a successful enqueue (single or batch, either policy, either backend) leaves at most max_depth
    active messages, provided the queue was not already lifted above max_depth (the stated exclusion) *)
Theorem C12_admitted_within_depth : forall fl c now single es o s s' r,
  (single = true -> length es = 1%nat) ->
  Inv s -> step_enqueue fl c now single es o s = (s', r) -> res_ok r = true -> es <> [] ->
  0 < c_max_depth c -> active (msgs (prune c now (o_gone o) s)) <= c_max_depth c ->
  active (msgs s') <= c_max_depth c.
Proof.
  intros fl c now single es o s s' r _ I H Hok Hne Hmax _.
  apply (admitted_within_depth fl c now single es o s s' r); assumption.
Qed.

(** history level: as long as no operator requeue/resume lifts it, queued+leased <= max_depth always *)
Theorem C12_active_bounded_along_history : forall fl c xs,
  0 < c_max_depth c ->
  Forall (fun xo : op * oracle => lifts (fst xo) = false) xs ->
  active (msgs (snd (run fl c init xs))) <= c_max_depth c.
Proof.
  intros fl c xs Hmax HF. apply active_bounded_along_history; auto; [exact inv_init | unfold active, count_st; simpl; Lia.lia].
Qed.

(** evictions happen only for a successful enqueue under drop_oldest, only of queued - never leased -
    messages (C02's [rm_evict]); SQLite evicts exactly as many as needed, one per message stored beyond the room *)
Theorem C12_sql_evicts_exactly : forall c fuel need hint l l2,
  NoDup (ids l) -> sql_make_room c fuel need hint l = Some l2 ->
  exists vs, l2 = apply_pm (pm_remove_ids vs) l /\ queued_ids l vs /\ NoDup vs
             /\ Z.of_nat (length vs) = Z.max 0 (need - c_max_depth c).
Proof.
  intros c fuel need hint l l2 _ H. destruct (sql_make_room_evicts c fuel need hint l l2 H) as [vs [E [Q [ND [Len _]]]]].
  exists vs. auto.
Qed.

Theorem C12_mem_plan_sound : forall c fuel extra ord l a ad vs,
  mem_plan_loop c fuel extra ord l a ad [] = Some vs ->
  NoDup vs /\ queued_ids l vs /\
  exists n, Z.of_nat (length vs) = n /\ 0 <= n /\ mem_full c extra (a - n) (ad - n) = false.
Proof.
  intros c fuel extra ord l a ad vs H.
  destruct (mem_plan_loop_exact c fuel extra ord l a ad [] vs H (NoDup_nil N)) as [A [B [n [Ln [Hn Hf]]]]]; [intros v []|].
  split; [exact A|]. split; [exact B|]. exists n. simpl in Ln. repeat split; assumption.
Qed.

(** the victim is an oldest queued message *)
Theorem C12_sql_victim_is_oldest_queued : forall hint l v,
  sql_victim hint l = Some v ->
  exists m, In m l /\ m_id m = v /\ queuedb m = true /\ forall q, In q l -> queuedb q = true -> m_recv m <= m_recv q.
Proof. exact sql_victim_oldest. Qed.

Theorem C12_mem_victim_is_oldest_queued : forall ord l vs m,
  mem_oldest ord l vs None = Some m ->
  forall i q, In i ord -> find_id i l = Some q -> queuedb q = true -> ~ In i vs -> m_recv m <= m_recv q.
Proof. intros ord l vs m H. exact (proj2 (mem_oldest_min ord l vs None m H)). Qed.

(** memory backend, over every history: the order log covers every stored id (invariant), hence the
    first planned victim is an oldest queued message of the whole store *)
Theorem C12_mem_first_victim_is_oldest_of_store : forall c xs m,
  let s := snd (run Mem c init xs) in
  mem_oldest (order s) (msgs s) [] None = Some m ->
  In m (msgs s) /\ queuedb m = true /\ forall q, In q (msgs s) -> queuedb q = true -> m_recv m <= m_recv q.
Proof.
  intros c xs m s H.
  pose proof (reachable_inv Mem c xs) as I. fold s in I.
  pose proof (order_covers_reachable c xs) as Cv. fold s in Cv.
  destruct (mem_oldest_fresh _ _ _ _ _ H) as [E | [Hm [Hq _]]]; [discriminate|].
  split; [exact Hm|]. split; [exact Hq|]. intros q Hq1 Hq2.
  apply (proj2 (mem_oldest_min _ _ _ _ _ H) (m_id q) q); auto.
  - apply Cv. apply in_map. exact Hq1.
  - apply find_id_In_NoDup; [apply I | exact Hq1].
Qed.

(** nothing but an enqueue or an operator requeue/resume raises the active count *)
Theorem C12_only_enqueue_raises_active : forall fl c s x o s' r,
  Inv s -> raises_active x = false -> step fl c s x o = (s', r) -> active (msgs s') <= active (msgs s).
Proof. exact step_active_not_raised. Qed.

Example C12_witness :
  let e i := mkEnq (Some i) 1%N 1%N None None 5%N 0%N 0%N in
  let o0 := mkOracle [] [] [] [] in
  map (fun ev => (ev_res ev, map m_id (ev_after ev)))
      (model_trace Sql (mkCfg 2 true 0 0 0 0 0 0)
         [(Enqueue 100 (e 1%N), o0); (Enqueue 101 (e 2%N), o0);
          (Enqueue 102 (e 2%N), mkOracle [] [1%N] [] []);      (* full + duplicate id: refused, nothing evicted *)
          (Enqueue 103 (e 3%N), mkOracle [] [1%N] [] [])])     (* full: the oldest queued is evicted, 3 stored *)
  = [(RUnit, [1%N]); (RUnit, [1%N; 2%N]); (RErr EExists, [1%N; 2%N]); (RUnit, [2%N; 3%N])].
Proof. vm_compute. reflexivity. Qed.

(** What a successful enqueue evicts, exactly, on either backend: [vs] are distinct ids of queued
    messages of the pruned store [P]; as many as the new items need to fit and no more
    (max 0 (A + k - max_depth) under drop_oldest with a depth limit, none otherwise; A = active count,
    for the memory store with delivered retention the larger of active and active+delivered); under
    the reject policy the items fit as they are; and every evicted message is no younger (received_at)
    than every queued message that stays. *)
Theorem C12_successful_enqueue_evicts_exactly : forall fl c now single es o s s' r,
  es <> [] -> Inv s -> (fl = Mem -> order_covers s) -> step_enqueue fl c now single es o s = (s', r) ->
  (msgs s' = msgs s /\ r = RBadOracle)
  \/ (msgs s' = msgs (prune c now (o_gone o) s) /\ exists e, r = RErr e)
  \/ (exists vs ies, assign_ids es (o_genids o) = Some ies
        /\ evict_spec fl c (Z.of_nat (length ies)) (msgs (prune c now (o_gone o) s)) vs
        /\ msgs s' = apply_pm (pm_remove_ids vs) (msgs (prune c now (o_gone o) s)) ++ mk_news now ies
        /\ r = (if single then RUnit else RCount (Z.of_nat (length ies)) 0 false)).
Proof.
  intros fl c now single es o s s' r Hne Hi Hcov H.
  destruct (step_enqueue_cases _ _ _ _ _ _ _ _ _ H) as [E | _ _ | e _ | ies l2 _ EA Eroom _ _];
    [contradiction | left; auto | right; left; eauto |].
  destruct (enq_room_evicts fl c _ _ _ l2 (inv_nodup _ _ (inv_prune c now (o_gone o) s Hi))
              (fun E => prune_order_covers c now (o_gone o) s (Hcov E)) Eroom) as [vs [El2 Spec]].
  right. right. exists vs, ies. subst l2. auto.
Qed.

(** The executable monitor, per event: it looks at enqueues of at least one message only. *)
Theorem C12_monitor_holds_on_every_step : forall fl c s x o s' r ins,
  Inv s -> (fl = Mem -> order_covers s) -> step fl c s x o = (s', r) ->
  fresh_enqueue (mkEvent x o r (msgs s) (msgs s')) ->
  c12_event fl c ins (mkEvent x o r (msgs s) (msgs s')) = true.
Proof.
  intros fl c s x o s' r ins Hi Hcov H Hfresh. destruct (enq_list x) as [|e0 es0] eqn:Hes.
  - destruct x; try reflexivity; [discriminate Hes | cbn [enq_list] in Hes; subst es; reflexivity].
  - apply (c12_enqueue fl c s x o s' r ins); try assumption. rewrite Hes. discriminate.
Qed.

(** The executable monitor [P_C12] - what the correspondence check evaluates on traces of the Go stores -
    holds on every trace of the model (both flavours, every configuration and history) in which no
    successful enqueue re-uses the id of a message stored when it started. *)
Theorem C12_monitor_holds_on_every_model_trace : forall fl c xs,
  Forall fresh_enqueue (model_trace fl c xs) -> P_C12 fl c (model_trace fl c xs) = true.
Proof.
  intros fl c xs H.
  apply (mon_all_on_run fl c _ (fun s _ _ => fl = Mem -> order_covers s) fresh_enqueue);
    [| exact inv_init | intros _ i [] | exact H].
  intros s iss x o tl s' r Hi Hcov Es e. split.
  - intros E. subst fl. pose proof (step_order_covers c s x o Hi (Hcov eq_refl)) as Hc. rewrite Es in Hc. exact Hc.
  - intros Hf ins. exact (C12_monitor_holds_on_every_step fl c s x o s' r ins Hi Hcov Es Hf).
Qed.

(** non-vacuity: a history with evictions on both flavours, a refusal and an operator-lifted queue *)
Example C12_monitor_premise_met :
  let e i := mkEnq (Some i) 1%N 1%N None None 5%N 0%N 0%N in
  let o0 := mkOracle [] [] [] [] in
  let h := [(Enqueue 100 (e 1%N), o0); (Enqueue 101 (e 2%N), o0);
            (EnqueueBatch 102 [e 3%N; e 4%N], mkOracle [] [1%N; 2%N] [] []);       (* evicts 1 and 2 *)
            (Enqueue 103 (e 4%N), o0);                                               (* duplicate id: refused, eviction undone *)
            (Dequeue 200 None None 2 1000, mkOracle [(3%N, 11%N); (4%N, 12%N)] [] [] []);
            (Enqueue 201 (e 5%N), o0)] in                                            (* both slots leased: full *)
  let cfg := mkCfg 2 true 0 0 0 0 0 0 in
  (forallb fresh_enqueueb (model_trace Sql cfg h) && forallb fresh_enqueueb (model_trace Mem cfg h),
   map (fun ev => map m_id (ev_after ev)) (model_trace Sql cfg h),
   P_C12 Sql cfg (model_trace Sql cfg h), P_C12 Mem cfg (model_trace Mem cfg h))
  = (true, [[1]; [1; 2]; [3; 4]; [3; 4]; [3; 4]; [3; 4]]%N, true, true).
Proof. vm_compute. reflexivity. Qed.

Print Assumptions C12_refusal_frame.
Print Assumptions C12_admitted_within_depth.
Print Assumptions C12_active_bounded_along_history.
Print Assumptions C12_sql_evicts_exactly.
Print Assumptions C12_mem_plan_sound.
Print Assumptions C12_sql_victim_is_oldest_queued.
Print Assumptions C12_mem_victim_is_oldest_queued.
Print Assumptions C12_only_enqueue_raises_active.
Print Assumptions C12_mem_first_victim_is_oldest_of_store.
Print Assumptions C12_successful_enqueue_evicts_exactly.
Print Assumptions C12_monitor_holds_on_every_model_trace.
Print Assumptions C12_monitor_holds_on_every_step.
