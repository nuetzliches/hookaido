(** C03 - lease exclusivity: one live lease per message.
    Statements, each derived from Proofs/. *)
From Coq Require Import List ZArith NArith Bool Lia.
From HK Require Import Model.Queue Model.QueueMon Proofs.QueueBase Proofs.QueueInv Proofs.QueueInvStep
  Proofs.QueueStep Proofs.QueueLease Proofs.QueueTrace Proofs.QueueEpochs Proofs.QueueMonSound.
Import ListNotations.
Open Scope Z_scope.

(** In every reachable state a message carries at most one lease (it is one field), is leased iff
    it carries one, and no lease id is held by two messages. *)
Theorem C03_one_lease_per_message : forall fl c xs,
  let s := snd (run fl c init xs) in
  (forall m, In m (msgs s) -> coherent m = true) /\ lease_inj (msgs s) /\ NoDup (ids (msgs s)).
Proof.
  intros fl c xs. destruct (inv_state_ok _ (reachable_inv fl c xs)) as [A [B C]]. split; [exact B|]. split; [exact C | exact A].
Qed.

(** What a dequeue returns: pairwise distinct messages that were ready - queued, due, matching
    route/target - in the state left by retention pruning and the release of expired leases; each
    comes back leased under a lease id that was never issued before, with attempt + 1 and
    lease_until = now + ttl > now; the number returned is min(batch', ready). *)
Theorem C03_dequeue_sound : forall fl c now route target batch ttl o s s' items,
  Inv s -> step_dequeue fl c now route target batch ttl o s = (s', RItems items) ->
  let s2 := deq_pre fl c now o s in
  NoDup (map (fun it => fst (fst (fst it))) items)
  /\ NoDup (map (fun it => snd (fst (fst it))) items)
  /\ Z.of_nat (length items) = Z.min (clamp_batch batch) (Z.of_nat (length (filter (ready now route target) (msgs s2))))
  /\ forall i lid att un, In (i, lid, att, un) items ->
       exists m0, find_id i (msgs s2) = Some m0 /\ ready now route target m0 = true
                  /\ find_id i (msgs s') = Some (leased_version now (eff_ttl ttl) lid m0)
                  /\ att = m_attempt m0 + 1 /\ un = now + eff_ttl ttl /\ now < un
                  /\ ~ In lid (issued s) /\ In lid (issued s').
Proof. exact dequeue_sound. Qed.

(** A message that is leased and unexpired, not yet due, canceled, dead or delivered is never returned. *)
Theorem C03_never_returns_unavailable : forall fl c now route target batch ttl o s s' items m,
  Inv s -> step_dequeue fl c now route target batch ttl o s = (s', RItems items) ->
  In m (msgs s) -> unavailable now m = true ->
  ~ In (m_id m) (map (fun it => fst (fst (fst it))) items).
Proof. exact dequeue_never_returns_unavailable. Qed.

(** A lease ends only by expiry, by ack/nack/dead-letter presenting that very lease before it
    expired, or by an operator cancel - so between two dequeues of one message its earlier lease
    ended in one of these ways (every step of every history is a [change], C02). *)
Theorem C03_lease_ends_only_legally : forall c x r m m' l,
  change c x r m m' -> m_lease m = Some l -> is_leased m = true -> m_lease m' <> Some l ->
  (expired (op_now x) m = true /\ releases x = true)
  \/ (In l (presented x) /\ op_now x < m_until m /\ exists k, lease_op_kind x = Some k /\ is_extend k = false)
  \/ manage_kind_of x = Some MCancel.
Proof. exact lease_ends_legally. Qed.

(** History level: whenever two dequeues of one history return the same message id, they issued
    different lease ids and, strictly between them (or at the second one, which then noticed the
    expiry itself), some event ended the first lease in one of the legal ways - expiry noticed by a
    dequeue or lease operation, ack/nack/dead-letter presenting that lease while unexpired, or an
    operator cancel.  [ended_legally c e m l] says exactly that about event e. *)
Theorem C03_two_dequeues_separated_by_lease_end : forall fl c xs i j ei ej m l l2,
  let evs := model_trace fl c xs in
  (i < j)%nat -> nth_error evs i = Some ei -> nth_error evs j = Some ej ->
  is_dequeue (ev_op ei) = true -> In (m, l) (item_pairs (ev_res ei)) ->
  is_dequeue (ev_op ej) = true -> In (m, l2) (item_pairs (ev_res ej)) ->
  l <> l2 /\ exists k ek, (i < k <= j)%nat /\ nth_error evs k = Some ek /\ ended_legally c ek m l.
Proof.
  intros fl c xs i j ei ej m l l2 evs Hij Hi Hj Di Pi Dj Pj.
  destruct (run_event_step fl c init xs i ei inv_init Hi) as [xi [oi [_ [Exi [_ [Ii [Si [_ Ai]]]]]]]].
  destruct (run_event_step fl c init xs j ej inv_init Hj) as [xj [oj [_ [Exj [_ [Ij [Sj [_ Aj]]]]]]]].
  rewrite Exi in Di. rewrite Exj in Dj.
  destruct (dequeue_item_held _ _ _ _ _ _ _ m l Ii Si Di Pi) as [Hh [_ Iss]].
  destruct (dequeue_item_held _ _ _ _ _ _ _ m l2 Ij Sj Dj Pj) as [Hh2 [Nin2 _]].
  assert (Hne : l <> l2).
  { intros E. subst l2. apply Nin2. apply (state_before_issued_mono fl c init xs (S i) j l); [lia | exact Iss]. }
  split; [exact Hne|].
  apply (held_lease_ends fl c xs i j ei ej m l Hij Hi Hj).
  - rewrite Ai. exact Hh.
  - (* after the second dequeue the message is held under l2, hence not under l *)
    rewrite Aj. unfold holds in *. destruct (find_id m (msgs (state_before fl c init xs (S j)))) as [mj|]; [|reflexivity].
    rewrite andb_true_iff in Hh2. destruct Hh2 as [_ Hl]. destruct (m_lease mj) as [x|]; [|rewrite andb_false_r; reflexivity].
    apply N.eqb_eq in Hl. subst x. apply andb_false_iff. right. apply N.eqb_neq. intros E. apply Hne. symmetry. exact E.
Qed.

(** Over a whole history no lease id is handed out twice. *)
Theorem C03_lease_ids_fresh : forall fl c xs, NoDup (handed_out (model_trace fl c xs)).
Proof.
  intros fl c xs.
  pose proof (run_invI fl c init xs (conj inv_init (NoDup_nil N))) as [_ ND].
  rewrite handed_out_is_issued in ND. simpl in ND. exact ND.
Qed.

(** The executable monitor P_C03 that the check evaluates on implementation traces (pairwise-distinct,
    fresh lease ids; every returned item was ready or expired, comes back leased with attempt+1 and a
    future lease end; nothing but a dequeue creates or moves a lease) is implied by these theorems: it
    holds on every model trace whose dequeue answers were accepted as valid choices. *)
Theorem C03_monitor_holds_on_model : forall fl c xs,
  Forall (fun e => ev_res e <> RBadOracle) (model_trace fl c xs) -> P_C03 fl c (model_trace fl c xs) = true.
Proof. exact P_C03_holds_on_model. Qed.

Example C03_witness :
  let e i := mkEnq (Some i) 1%N 1%N None None 5%N 0%N 0%N in
  let o0 := mkOracle [] [] [] [] in
  handed_out (model_trace Mem (mkCfg 0 false 0 0 0 0 0 0)
     [(Enqueue 100 (e 7%N), o0); (Enqueue 100 (e 8%N), o0);
      (Dequeue 200 None None 2 1000, mkOracle [(7%N, 1%N); (8%N, 2%N)] [] [] []);
      (Dequeue 1200 None None 2 1000, mkOracle [(8%N, 3%N); (7%N, 4%N)] [] [] [])]) = [1%N; 2%N; 3%N; 4%N].
Proof. vm_compute. reflexivity. Qed.

Print Assumptions C03_one_lease_per_message.
Print Assumptions C03_dequeue_sound.
Print Assumptions C03_never_returns_unavailable.
Print Assumptions C03_lease_ends_only_legally.
Print Assumptions C03_lease_ids_fresh.
Print Assumptions C03_two_dequeues_separated_by_lease_end.
Print Assumptions C03_monitor_holds_on_model.
