(** C09 - replay protection: a signed request is accepted at most once.
    Statements, each derived from the lemmas of Proofs/ (ReplayProofs, NonceCacheInv, HmacProofs).
    Everything is parametric in [sha256] and [hmac].  A history is a list of events of one route
    path in LOCK ORDER: [EReq now r] = one request = one atomic step (clock reading [now], tolerance
    test and nonce cache under the cache mutex - nonceCache.admit); [EReload new] = one loadAuth.
    [admit_of s now r = Some (n, t)]: in state [s] the request passes the nonce step with trimmed
    nonce [n] and signed instant [t] (ns); a request Verify accepts is admitted
    ([C09_accepted_is_admitted]), so "never admitted twice" implies "never accepted twice". *)
From Coq Require Import ZArith List Bool NArith Lia.
From HK Require Import Model.NonceCache Model.Hmac Model.ReloadAuth Model.HmacHistory
  Proofs.NonceCacheProofs Proofs.HmacProofs Proofs.ReplayProofs Proofs.NonceCacheInv.
Import ListNotations.
Open Scope Z_scope.

(** Between two admissions of one nonce there is a request - possibly the second one itself - whose
    clock reading lay beyond the first request's window under the tolerance then in force.
    No assumption at all: any clock, any reloads (changing secrets, header names, tolerance; dropping
    the route and adding it back), any other requests. *)
Theorem C09_window_closed_between : forall sha256 hmac s1 now1 r1 n t1 h now2 r2 t2,
  admit_of s1 now1 r1 = Some (n, t1) ->
  let s1' := fst (step sha256 hmac s1 (EReq now1 r1)) in
  admit_of (run sha256 hmac s1' h) now2 r2 = Some (n, t2) ->
  exists k tolk, In (k, tolk) (checkpoints sha256 hmac s1' (h ++ [EReq now2 r2])) /\ t1 + tolk < k.
Proof.
  intros sha256 hmac s1 now1 r1 n t1 h now2 r2 t2 A1 s1' A2.
  apply (window_closed_between sha256 hmac s1' n t1 h now2 r2 t2); [|exact A2].
  apply admitted_remembered. exact A1.
Qed.

(** no_double_accept.  Clock readings non-decreasing in lock order (the reading is taken under the
    mutex), tolerance in force at the second admission not larger than the tolerance in force at any
    request in between: the nonce is admitted again only strictly after [t1 + tol], i.e. a request
    with the same nonce is rejected while [now2 <= t1 + tol2], at the window edge included. *)
Theorem C09_no_double_accept : forall sha256 hmac s1 now1 r1 n t1 h now2 r2 t2 tol2,
  admit_of s1 now1 r1 = Some (n, t1) ->
  let s1' := fst (step sha256 hmac s1 (EReq now1 r1)) in
  admit_of (run sha256 hmac s1' h) now2 r2 = Some (n, t2) ->
  clock_mono now1 (h ++ [EReq now2 r2]) ->
  (forall k tolk, In (k, tolk) (checkpoints sha256 hmac s1' (h ++ [EReq now2 r2])) -> tol2 <= tolk) ->
  t1 + tol2 < now2.
Proof. exact no_double_accept. Qed.

(** replay_never_twice.  A request with the same nonce and signed timestamp as an admitted one - in
    particular a byte-identical replay - is never admitted again, whatever lies in between. *)
Theorem C09_replay_never_twice : forall sha256 hmac s1 now1 r1 n t h now2 r2,
  admit_of s1 now1 r1 = Some (n, t) ->
  let s1' := fst (step sha256 hmac s1 (EReq now1 r1)) in
  clock_mono now1 (h ++ [EReq now2 r2]) ->
  (forall a, p_active (run sha256 hmac s1' h) = Some a -> 0 < h_tol (a_cfg a) /\
     forall k tolk, In (k, tolk) (checkpoints sha256 hmac s1' h) -> h_tol (a_cfg a) <= tolk) ->
  admit_of (run sha256 hmac s1' h) now2 r2 <> Some (n, t).
Proof. exact replay_never_twice. Qed.

Theorem C09_accepted_is_admitted : forall sha256 hmac s now r a,
  p_active s = Some a -> hmac_configured (a_cfg a) ->
  snd (step sha256 hmac s (EReq now r)) = true -> exists n t, admit_of s now r = Some (n, t).
Proof.
  intros sha256 hmac s now r a Ha Hc. unfold admit_of. simpl. rewrite Ha.
  destruct (verify sha256 hmac (a_cfg a) (a_cache a) now r) as [ok c'] eqn:V. cbn [snd]. intros ->.
  apply (verify_true_admitted sha256 hmac); [exact Hc | rewrite V; reflexivity].
Qed.

(** reload_keeps_nonces.  Any sequence of reloads keeps an honoured nonce remembered (by the active
    authenticator, or by the retired one while the path has none) with an expiry that covers the
    first request's window under the tolerance then configured ... *)
Theorem C09_reload_keeps_nonces : forall sha256 hmac s n t1 reloads,
  remembered s n t1 -> remembered (run sha256 hmac s (map EReload reloads)) n t1.
Proof. exact reload_keeps_nonces. Qed.

(** ... hence the replay after any placement of reloads is refused inside that window. *)
Theorem C09_reload_then_replay_refused : forall sha256 hmac s1 now1 r1 n t1 reloads now2 r2 t2 a,
  admit_of s1 now1 r1 = Some (n, t1) ->
  let s2 := run sha256 hmac (fst (step sha256 hmac s1 (EReq now1 r1))) (map EReload reloads) in
  p_active s2 = Some a -> now2 <= t1 + h_tol (a_cfg a) ->
  admit_of s2 now2 r2 <> Some (n, t2).
Proof.
  intros sha256 hmac s1 now1 r1 n t1 reloads now2 r2 t2 a A1 s2 Ha Hin A2.
  pose proof (reload_keeps_nonces sha256 hmac _ _ _ reloads (admitted_remembered sha256 hmac _ _ _ _ _ A1)) as R.
  destruct (remembered_refuses sha256 hmac _ _ _ _ _ _ R A2) as (a' & Ha' & Hlt).
  fold s2 in Ha'. rewrite Ha in Ha'. injection Ha' as <-. lia.
Qed.

(** concurrent_duplicates.  k copies of one request served concurrently = some order of atomic steps
    with non-decreasing readings, any other requests in between: after the first admitted copy no
    other copy is admitted (so exactly one of k valid copies passes). *)
Theorem C09_concurrent_duplicates : forall sha256 hmac s cfg r n t now1 h now2,
  cfg_of s = Some cfg -> 0 < h_tol cfg ->
  admit_of s now1 r = Some (n, t) ->
  let s' := fst (step sha256 hmac s (EReq now1 r)) in
  only_reqs h -> clock_mono now1 (h ++ [EReq now2 r]) ->
  admit_of (run sha256 hmac s' h) now2 r = None.
Proof. exact concurrent_duplicates. Qed.

(** What the code does NOT guarantee: the tolerance hypothesis of [C09_replay_never_twice] cannot be
    dropped (known finding `reload-tolerance-grown-after-cleanup`).  A request is admitted; its window
    closes under the 5-minute tolerance and another request's opportunistic clean-up forgets the
    nonce; a reload raises the tolerance to 10 minutes; the byte-identical request passes the
    tolerance test again and is admitted a second time.  Monotone clock, one process life, the route
    never dropped. *)
Theorem C09_tolerance_grown_refuted : forall sha256 hmac,
  let tol5 := 300 * sec in let tol10 := 600 * sec in
  let r := w_req [49;48;48;48]%N [110;49]%N in
  let other := w_req [49;51;48;48]%N [110;50]%N in
  let now1 := 1000 * sec in let now_mid := 1000 * sec + tol5 + 1 in let now2 := 1000 * sec + tol5 + 2 in
  let s1 := reload_path (Some (w_cfg tol5)) p_init in
  let s1' := fst (step sha256 hmac s1 (EReq now1 r)) in
  let h := [EReq now_mid other; EReload (Some (w_cfg tol10))] in
  clock_mono now1 (h ++ [EReq now2 r]) /\
  admit_of s1 now1 r = Some ([110;49]%N, 1000 * sec) /\
  admit_of (run sha256 hmac s1' h) now2 r = Some ([110;49]%N, 1000 * sec).
Proof. intros sha256 hmac. vm_compute. repeat split; intros; discriminate. Qed.

(** The executable predicate the check evaluates on the implementation's trace of acceptances means:
    a nonce is accepted again only after the earlier request's window was over. *)
Theorem C09_P_C09_spec : forall tr,
  P_C09 tr = true <->
  forall pre a mid b post, tr = pre ++ a :: mid ++ b :: post ->
    ac_nonce a = ac_nonce b -> ac_signed a + ac_tol b < ac_now b.
Proof.
  induction tr as [|x tl IH]; simpl.
  - split; [|reflexivity]. intros _ pre a mid b post E. destruct pre; discriminate.
  - rewrite andb_true_iff, no_later_dup_spec, IH. split.
    + intros [H1 H2] pre a mid b post E En. destruct pre as [|p pre]; simpl in E; inversion E; subst.
      * apply H1; [apply in_or_app; right; left; reflexivity | exact En].
      * eapply H2; eauto.
    + intros H. split.
      * intros b Hin En. apply in_split in Hin. destruct Hin as (mid & post & ->).
        apply (H [] x mid b post); auto.
      * intros pre a mid b post E En. apply (H (x :: pre) a mid b post); [simpl; congruence | exact En].
Qed.

(** The nonce cache as a data structure.  The Go map nonce -> expiry is an association list in the
    model; every cache reachable from the empty one by admissions (accepted or refused, any clock) and
    tolerance-growing reloads holds each nonce at most once, so the model's [lookup] reads THE entry
    of a nonce exactly as the Go map does. *)
Theorem C09_cache_is_a_map : forall ops, wf (fold_left cache_step ops []).
Proof. intros ops. apply wf_fold, wf_nil. Qed.

(** An accepted admission leaves exactly one entry for the nonce and it covers the window t + tol. *)
Theorem C09_accepted_entry_unique : forall n t tol now c c',
  wf c -> cache_admit n t tol now c = (true, c') ->
  wf c' /\ lookup n c' = Some (t + tol) /\ (forall e, In (n, e) c' -> e = t + tol).
Proof.
  intros n t tol now c c' Hwf H.
  pose proof (wf_admit n t tol now c Hwf) as Hwf'.
  destruct (admit_true n t tol now c) as (_ & _ & Hl & _); [rewrite H; reflexivity|].
  rewrite H in Hwf', Hl. cbn [snd] in Hwf', Hl.
  split; [exact Hwf'|]. split; [exact Hl|].
  intros e Hin. apply (wf_lookup_in n e c' Hwf') in Hin. congruence.
Qed.

(** The opportunistic clean-up bounds the cache: after any request that passes the tolerance test
    (new nonce or replay alike), no entry already expired at that request's clock reading is left -
    the cache holds at most the nonces whose windows are still open; a request outside the tolerance
    window does not touch the cache at all (it can neither evict nor insert). *)
Theorem C09_cache_holds_only_open_windows : forall n t tol now c,
  n <> [] -> 0 < tol -> - tol <= now - t <= tol ->
  live_at now (snd (cache_admit n t tol now c)).
Proof. exact admit_in_window_live. Qed.

Theorem C09_out_of_window_request_leaves_cache_untouched : forall n t tol now c,
  0 < tol -> (now - t < - tol \/ tol < now - t) -> cache_admit n t tol now c = (false, c).
Proof. exact admit_out_of_window. Qed.

Print Assumptions C09_window_closed_between.
Print Assumptions C09_P_C09_spec.
Print Assumptions C09_no_double_accept.
Print Assumptions C09_replay_never_twice.
Print Assumptions C09_accepted_is_admitted.
Print Assumptions C09_reload_keeps_nonces.
Print Assumptions C09_reload_then_replay_refused.
Print Assumptions C09_concurrent_duplicates.
Print Assumptions C09_tolerance_grown_refuted.
Print Assumptions C09_cache_is_a_map.
Print Assumptions C09_accepted_entry_unique.
Print Assumptions C09_cache_holds_only_open_windows.
Print Assumptions C09_out_of_window_request_leaves_cache_untouched.
