(** C04 - lease fencing: a lease operation takes effect only through the message's current,
    unexpired lease; anything else changes nothing except returning an expired message to the queue. *)
From Coq Require Import List ZArith NArith Bool Lia.
From HK Require Import Model.Queue Model.QueueMon Proofs.QueueBase Proofs.QueueInv Proofs.QueueInvStep
  Proofs.QueueStep Proofs.QueueLease.
Import ListNotations.
Open Scope Z_scope.

Lemma current_spec now x l m :
  current now x l = Some m -> In m l /\ m_lease m = Some x /\ is_leased m = true /\ now < m_until m.
Proof.
  unfold current. destruct (find_lease x l) as [m1|] eqn:F; [|discriminate].
  destruct (is_leased m1 && (now <? m_until m1)) eqn:E; [|discriminate].
  intros H. inversion H; subst m1. apply find_lease_Some in F. destruct F as [A B].
  apply andb_true_iff in E. destruct E as [E1 E2]. apply Z.ltb_lt in E2. repeat split; assumption.
Qed.

(** under the invariant the holder found by [find_lease] is leased: [current] only adds the deadline *)
Lemma current_find_lease now x ms iss :
  InvL ms iss ->
  current now x ms = match find_lease x ms with
                     | Some m => if m_until m <=? now then None else Some m
                     | None => None
                     end.
Proof.
  intros I. unfold current. destruct (find_lease x ms) as [m|] eqn:F; [|reflexivity].
  apply find_lease_Some in F. destruct F as [Hm L].
  rewrite (lease_is_leased m x (inv_coh _ _ I m Hm) L), Z.ltb_antisym. destruct (m_until m <=? now); reflexivity.
Qed.

Lemma current_intro now x ms iss m :
  InvL ms iss -> In m ms -> m_lease m = Some x -> now < m_until m -> current now x ms = Some m.
Proof.
  intros I Hm L Hu. apply Z.leb_gt in Hu.
  rewrite (current_find_lease now x ms iss I), (find_lease_holder x ms iss m I Hm L), Hu. reflexivity.
Qed.

Theorem lease_op_fenced fl c now k x p s s' r :
  Inv s -> is_noop_extend k = false -> step_lease fl c now k (LKnown x p) s = (s', r) ->
  exists pm, msgs s' = apply_pm pm (msgs s) /\
    match current now x (msgs s) with
    | Some m => r = RUnit /\ pm m = lease_effect c now k m
                /\ forall y, In y (msgs s) -> y <> m -> pm y = Some y
    | None => (r = RErr ENotFound \/ r = RErr EExpired) /\
              forall y, In y (msgs s) ->
                pm y = Some y
                \/ (m_lease y = Some x /\ expired now y = true /\ pm y = Some (release now y) /\ r = RErr EExpired)
    end.
Proof.
  intros I Hn H. unfold step_lease in H. rewrite Hn, (lease_one_eq c now k x (msgs s) (issued s) I) in H.
  exists (pm_settle c now k [x]).
  (* a message is left alone unless it holds [x]; what happens to the holder, and the result, follow
     the lookup that [current] makes too *)
  pose proof (settle_lchange c now k [x]) as Each.
  rewrite (current_find_lease now x (msgs s) (issued s) I). destruct (find_lease x (msgs s)) as [m|] eqn:F.
  2:{ inversion H; subst s' r. split; [reflexivity|]. split; [left; reflexivity|]. intros y Hy. left.
      destruct (Each y) as [Q | [[lid [A [[B | []] _]]] | [lid [A [[B | []] _]]]]]; [exact Q | |];
        subst lid; exfalso; apply (find_lease_None x (msgs s) F y Hy A). }
  pose proof (find_lease_Some _ _ _ F) as [Hm Lm].
  assert (Only : forall y lid, In y (msgs s) -> m_lease y = Some lid -> In lid [x] -> y = m).
  { intros y lid Hy Ly [E | []]. subst lid. apply (inv_linj _ _ I y m x); assumption. }
  destruct (m_until m <=? now) eqn:Eu; inversion H; subst s' r.
  - apply Z.leb_le in Eu. split; [reflexivity|]. split; [right; reflexivity|]. intros y Hy.
    destruct (Each y) as [Q | [[lid [A [B [Cc D]]]] | [lid [A [B [_ [D _]]]]]]].
    + left. exact Q.
    + right. destruct B as [B | []]. subst lid. repeat split; assumption.
    + rewrite (Only y lid Hy A B) in D. lia.
  - apply Z.leb_gt in Eu. split; [reflexivity|]. split; [reflexivity|].
    split; [apply (settle_live c now k [x] m x Lm (or_introl eq_refl) (lease_is_leased m x (inv_coh _ _ I m Hm) Lm) Eu)|].
    intros y Hy Ny. destruct (Each y) as [Q | [[lid [A [B _]]] | [lid [A [B _]]]]]; [exact Q | |];
      exfalso; apply Ny, (Only y lid Hy A B).
Qed.

Theorem extend_nonpositive_is_noop fl c now by_ l s : by_ <= 0 -> step_lease fl c now (KExtend by_) l s = (s, RUnit).
Proof. intros H. unfold step_lease, is_noop_extend. apply Z.leb_le in H. rewrite H. reflexivity. Qed.

Theorem lease_batch_fenced c now k ls s s' r :
  batch_kind_ok k = true -> Inv s -> step_lease_batch c now k ls s = (s', r) ->
  let k' := match k with KNack d => KNack (Z.max d 0) | _ => k end in
  exists pm, msgs s' = apply_pm pm (msgs s)
    /\ (forall m, In m (msgs s) -> lchange c now k' (known_leases ls) m (pm m))
    /\ (forall m x, In m (msgs s) -> m_lease m = Some x -> In x (known_leases ls) -> is_leased m = true ->
                    now < m_until m -> pm m = lease_effect c now k' m).
Proof.
  intros Hk I H. cbv zeta. unfold step_lease_batch in H.
  set (k' := match k with KNack d => KNack (Z.max d 0) | _ => k end) in *.
  assert (Hk' : batch_kind_ok k' = true) by (destruct k; exact Hk).
  pose proof (lease_batch_eq c now k' ls (msgs s) (issued s) Hk' I) as E.
  destruct (lease_batch c now k' ls (msgs s)) as [[ms' n] cs]. inversion H; subst.
  exists (pm_settle c now k' (known_leases ls)). split; [exact E|].
  split; [intros m _; apply settle_lchange | intros m x _; apply settle_live].
Qed.

Lemma known_leases_map xs : known_leases (map (fun l => LKnown l false) xs) = xs.
Proof. induction xs as [|x tl IH]; simpl; [reflexivity | rewrite IH; reflexivity]. Qed.

Lemma lease_one_current c now k y ms ms1 out iss :
  batch_kind_ok k = true -> InvL ms iss -> lease_one c now k y ms = (ms1, out) ->
  match out with LOk => current now y ms <> None | LConflict _ => current now y ms = None end
  /\ forall x, x <> y -> (current now x ms1 = None <-> current now x ms = None).
Proof.
  intros Hk I E. rewrite (lease_one_eq c now k y ms iss I) in E. injection E as <- <-.
  pose proof (invl_settle c now k [y] ms iss I) as I1. split.
  - rewrite (current_find_lease now y ms iss I). destruct (find_lease y ms) as [m|]; [|reflexivity].
    destruct (m_until m <=? now); [reflexivity | discriminate].
  - intros x Nxy. split; intros Hn.
    + (* the message fenced by x is not touched *)
      destruct (current now x ms) as [m|] eqn:Ec; [exfalso | reflexivity].
      apply current_spec in Ec. destruct Ec as [Hm [L [Il Hu]]].
      assert (Hm1 : In m (apply_pm (pm_settle c now k [y]) ms)).
      { apply apply_pm_In. exists m. split; [exact Hm|]. apply settle_other. intros z [<- | []]. congruence. }
      rewrite (current_intro now x _ iss m I1 Hm1 L Hu) in Hn. discriminate.
    + (* a message fenced by x afterwards was so before: releasing and settling clear the lease *)
      destruct (current now x (apply_pm (pm_settle c now k [y]) ms)) as [m'|] eqn:Ec; [exfalso | reflexivity].
      apply current_spec in Ec. destruct Ec as [Hin [L [Il Hu]]].
      apply apply_pm_In in Hin. destruct Hin as [m [Hm Ep]].
      destruct (settle_lchange c now k [y] m) as [A | [[lid [_ [_ [_ A]]]] | [lid [_ [_ [_ [_ A]]]]]]]; rewrite Ep in A.
      * inversion A; subst m'. rewrite (current_intro now x ms iss m I Hm L Hu) in Hn. discriminate.
      * inversion A; subst m'. discriminate.
      * symmetry in A. apply (lease_effect_clears c now k m m' Hk) in A. destruct A. congruence.
Qed.

Lemma manage_effect_clears now k m m' : manage_effect now k m = Some m' -> m_lease m' = None.
Proof. unfold manage_effect. destruct k; intros H; inversion H; reflexivity. Qed.

Lemma change_lease_source c x r m m' l :
  change c x r m m' -> m_lease m' = Some l -> m_lease m = Some l \/ In l (item_leases r).
Proof.
  intros H L. destruct H as [E | _ _ _ E | route target b ttl lid m0 _ _ _ Hin _ E | k lid _ _ _ _ _ _ _ E | k _ _ _ E].
  - subst. left. exact L.
  - subst. discriminate.
  - subst. simpl in L. inversion L; subst. right. rewrite item_leases_pairs. apply (in_map snd _ _ Hin).
  - unfold lease_effect in E. destruct k.
    + destruct (0 <? c_deliv_age c); inversion E; subst; simpl in L; discriminate.
    + inversion E; subst; simpl in L; discriminate.
    + inversion E; subst; simpl in L. left. exact L.
    + inversion E; subst; simpl in L; discriminate.
  - apply manage_effect_clears in E. congruence.
Qed.

Lemma step_lease_source fl c s x o s' r m' l :
  Inv s -> step fl c s x o = (s', r) -> In m' (msgs s') -> m_lease m' = Some l ->
  (exists m, In m (msgs s) /\ m_lease m = Some l) \/ (~ In l (issued s) /\ In l (issued s')).
Proof.
  intros I H Hin L. destruct (step_sound fl c s x o s' r I H) as [pm [news [E [P N]]]].
  rewrite E in Hin. apply in_app_or in Hin. destruct Hin as [Hin | Hin].
  - apply apply_pm_In in Hin. destruct Hin as [m [Hm Ep]]. specialize (P m Hm). rewrite Ep in P.
    destruct (change_lease_source c x r m m' l P L) as [A | A]; [left; exists m; auto|].
    right. pose proof (step_issued fl c s x o) as SI. rewrite H in SI. simpl in SI.
    destruct SI as [[_ Hn] | [now [route [target [batch [ttl [_ [Ei [_ [D Er]]]]]]]]]].
    + rewrite Hn in A. destruct A.
    + rewrite Er in A. split; [apply D; exact A | rewrite Ei; apply in_or_app; right; exact A].
  - destruct N as [N | [_ [ies [_ En]]]]; [subst; destruct Hin|].
    subst news. apply in_map_iff in Hin. destruct Hin as [q [Eq _]]. subst m'. discriminate.
Qed.

Lemma step_issued_mono fl c s x o l : In l (issued s) -> In l (issued (fst (step fl c s x o))).
Proof. intros H. rewrite step_handed_out. apply in_or_app. left. exact H. Qed.

