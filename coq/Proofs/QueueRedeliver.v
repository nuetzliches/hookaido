(** C05 - at-least-once redelivery: visibility of expired leases (immediately on the memory backend,
    within the sweep interval on SQLite: the invariant [swept]). *)
From Coq Require Import List ZArith NArith Bool Lia.
From HK Require Import Model.Queue Model.QueueMon Proofs.QueueBase Proofs.QueueInv Proofs.QueueInvStep
  Proofs.QueueStep Proofs.QueueLease.
Import ListNotations.
Open Scope Z_scope.

Lemma leased_not_pruned c now hint s m :
  NoDup (ids (msgs s)) -> In m (msgs s) -> is_leased m = true -> prune_pm c now hint s m = Some m.
Proof.
  intros ND Hm L. destruct (prune_pm_cases c now hint s m ND Hm) as [E | [_ [N _]]]; [exact E | congruence].
Qed.

Theorem expiry_visible fl c now o s m :
  Inv s -> In m (msgs s) -> expired now m = true ->
  (fl = Mem \/ sql_sweep_due now (last_sweep s) = true) ->
  find_id (m_id m) (msgs (deq_pre fl c now o s)) = Some (release now m)
  /\ forall route target, opt_match route (m_route m) = true -> opt_match target (m_target m) = true ->
                          ready now route target (release now m) = true.
Proof.
  intros I Hm He Hs. split.
  - rewrite deq_pre_msgs, find_id_apply_pm_In; [|apply deq_pre_pm_id_pres | apply I | exact Hm].
    unfold deq_pre_pm, pm_comp. rewrite (leased_not_pruned c now (o_gone o) s m (inv_nodup _ _ I) Hm).
    + assert (Sw : match fl with Mem => true | Sql => sql_sweep_due now (last_sweep s) end = true)
        by (destruct Hs as [Hs | Hs]; [subst; reflexivity | destruct fl; [reflexivity | exact Hs]]).
      rewrite Sw. unfold pm_sweep. rewrite He. reflexivity.
    + unfold expired in He. apply andb_true_iff in He. apply He.
  - intros route target Hr Ht. unfold ready, queuedb. simpl. rewrite Hr, Ht. simpl. apply Z.leb_le. lia.
Qed.

(** SQLite: the lease sweep is throttled, the delay is bounded by the sweep interval.
    Invariant of histories whose clock never runs backwards: every live lease ends after the last sweep. *)
Definition swept (s : state) (t : Z) : Prop :=
  0 <= last_sweep s /\ last_sweep s <= t /\ forall m, In m (msgs s) -> is_leased m = true -> last_sweep s < m_until m.

Lemma sweep_leaves_live now l m : In m (sweep now l) -> is_leased m = true -> now < m_until m.
Proof.
  unfold sweep. intros H L. apply apply_pm_In in H. destruct H as [m0 [_ E]]. unfold pm_sweep in E.
  destruct (expired now m0) eqn:Ee; inversion E; subst.
  - discriminate.
  - unfold expired in Ee. rewrite L in Ee. simpl in Ee. apply Z.leb_gt in Ee. exact Ee.
Qed.

Lemma change_keeps_lease_end c x r m m' :
  change c x r m m' -> is_leased m' = true -> (is_leased m = true /\ m_until m <= m_until m') \/ is_dequeue x = true.
Proof.
  intros H L. destruct H as [E | _ _ _ E | route target b ttl lid m0 Ex _ _ _ _ E | k lid _ _ _ Il _ _ Hne E | k _ _ _ E].
  - subst. left. split; [exact L | lia].
  - subst. discriminate.
  - right. rewrite Ex. reflexivity.
  - unfold lease_effect in E. destruct k.
    + destruct (0 <? c_deliv_age c); inversion E; subst; discriminate.
    + inversion E; subst; discriminate.
    + inversion E; subst. left. split; [exact Il|]. simpl. unfold is_noop_extend in Hne. apply Z.leb_gt in Hne. lia.
    + inversion E; subst; discriminate.
  - unfold manage_effect in E. destruct k; inversion E; subst; discriminate.
Qed.

Lemma deq_pre_swept c now o s t : swept s t -> t <= now -> swept (deq_pre Sql c now o s) now.
Proof.
  intros [S0 [S1 S2]] Ht. unfold deq_pre. set (s1 := prune c now (o_gone o) s).
  assert (Els : last_sweep s1 = last_sweep s) by apply prune_last_sweep.
  assert (S2' : forall m, In m (msgs s1) -> is_leased m = true -> last_sweep s < m_until m).
  { intros m Hm. apply S2. apply (prune_sub c now (o_gone o) s m Hm). }
  rewrite Els. destruct (sql_sweep_due now (last_sweep s)); unfold swept; simpl.
  - split; [lia|]. split; [lia|]. apply sweep_leaves_live.
  - rewrite Els. split; [lia|]. split; [lia | exact S2'].
Qed.

Lemma plain_step_swept c s x o t :
  Inv s -> swept s t -> t <= op_now x -> is_dequeue x = false -> (forall now, x <> Reopen now) ->
  swept (fst (step Sql c s x o)) (op_now x).
Proof.
  intros I [S0 [S1 S2]] Ht Hd Hr. pose proof (proj1 (proj2 (step_frame Sql c s x o)) Hd Hr) as Els.
  destruct (step Sql c s x o) as [s' r] eqn:Es. simpl in *.
  destruct (step_sound Sql c s x o s' r I Es) as [pm [news [E [P N]]]].
  unfold swept. rewrite Els. split; [exact S0|]. split; [lia|].
  intros m' Hm' L. rewrite E in Hm'. apply in_app_or in Hm'. destruct Hm' as [Hm' | Hm'].
  - apply apply_pm_In in Hm'. destruct Hm' as [m [Hm Ep]]. specialize (P m Hm). rewrite Ep in P.
    destruct (change_keeps_lease_end c x r m m' P L) as [[Lm Hu] | D]; [specialize (S2 m Hm Lm); lia | congruence].
  - (* a message just enqueued is not leased *)
    destruct N as [-> | [_ [ies [_ ->]]]]; [destruct Hm'|].
    apply in_map_iff in Hm'. destruct Hm' as [q [<- _]]. discriminate L.
Qed.

Lemma step_swept c s x o t :
  Inv s -> swept s t -> t <= op_now x -> swept (fst (step Sql c s x o)) (op_now x).
Proof.
  intros I S Ht.
  destruct x; try (apply (plain_step_swept c s _ o t I S Ht); [reflexivity | discriminate]); cbn [step op_now] in *.
  - (* dequeue: a new lease ends after now *)
    rewrite step_dequeue_eq. cbv zeta. pose proof (deq_pre_swept c now o s t S Ht) as S'.
    set (s2 := deq_pre Sql c now o s) in *. destruct S' as [S0 [S1 S2]].
    destruct (valid_pick _ _ _ _ _ _ _); unfold swept; simpl; (split; [exact S0|]); (split; [exact S1|]); [|exact S2].
    intros m Hm L. apply apply_pm_In in Hm. destruct Hm as [m0 [H0 E]].
    unfold pm_lease in E. destruct (lease_of (o_picked o) (m_id m0)); injection E as <-; [|apply S2; assumption].
    cbn [m_until upd]. pose proof (eff_ttl_pos ttl). lia.
  - (* reopen resets the sweep clock *)
    destruct S as [S0 [S1 S2]]. unfold swept. simpl. split; [lia|]. split; [lia|].
    intros m Hm L. specialize (S2 m Hm L). lia.
Qed.

Fixpoint monotone_from (t : Z) (xs : list (op * oracle)) : Prop :=
  match xs with
  | [] => True
  | (x, _) :: tl => t <= op_now x /\ monotone_from (op_now x) tl
  end.

Definition last_time (t : Z) (xs : list (op * oracle)) : Z :=
  fold_left (fun _ xo => op_now (fst xo)) xs t.

Theorem swept_along_monotone_histories c s t xs :
  Inv s -> swept s t -> monotone_from t xs -> swept (snd (run Sql c s xs)) (last_time t xs).
Proof.
  revert s t. induction xs as [|[x o] tl IH]; simpl; intros s t I S M; [exact S|].
  destruct M as [M1 M2].
  pose proof (step_inv Sql c s x o I) as I1. pose proof (step_swept c s x o t I S M1) as S1.
  destruct (step Sql c s x o) as [s' r]. simpl in I1, S1. specialize (IH s' (op_now x) I1 S1 M2).
  destruct (run Sql c s' tl) as [evs sf]. exact IH.
Qed.

Lemma swept_init : swept init 0.
Proof. unfold swept, init; simpl. split; [lia|]. split; [lia|]. intros m []. Qed.

