(** Verify of Model/Hmac.v (C08, C09) in three stages - headers ([verify_pre]), the nonce cache, the signature ([signed_by]):
    [verify_eq], [verify_spec]; then injectivity of hex and of the string to sign, for the tamper theorem. *)
From Coq Require Import ZArith List Bool NArith Lia.
From HK Require Import Model.NonceCache Model.Hmac Model.HmacHistory Proofs.NonceCacheProofs.
Import ListNotations.
Open Scope Z_scope.

Lemma is_valid_at_spec t v :
  is_valid_at t v = true <->
  v_from v <= t /\ match v_until v with None => True | Some u => t < u end.
Proof.
  unfold is_valid_at. rewrite andb_true_iff, Z.leb_le.
  destruct (v_until v); [rewrite Z.ltb_lt|]; tauto.
Qed.

Section Crypto.
Variable sha256 : bytes -> bytes.
Variable hmac : bytes -> bytes -> bytes.

Notation verify := (verify sha256 hmac).
Notation string_to_sign := (string_to_sign sha256).
Notation sig_matches := (sig_matches hmac).

Lemma sig_matches_spec secrets msg got :
  sig_matches secrets msg got = true <->
  exists k, In k secrets /\ k <> [] /\ got = hmac k msg.
Proof.
  unfold Hmac.sig_matches. rewrite existsb_exists. split.
  - intros [k [Hin Hk]]. exists k. destruct k; [discriminate|]. apply beqb_eq in Hk. repeat split; auto. discriminate.
  - intros [k [Hin [Hne He]]]. exists k. split; [exact Hin|]. destruct k; [congruence|]. apply beqb_eq. exact He.
Qed.

(** The signature stage of Verify, for a request whose headers gave the hex signature [sig_hex], the
    timestamp text [ts_text] and the timestamp [ts]. *)
Definition signed_by (cfg : hmac_cfg) (r : hreq) (sig_hex ts_text : bytes) (ts : Z) : bool :=
  match hex_decode sig_hex with
  | None | Some [] => false
  | Some got => sig_matches (secrets_at cfg (ts * sec))
                  (string_to_sign ts_text (q_method r) (q_path r) (q_body r)) got
  end.

Lemma signed_by_spec cfg r sg tt ts :
  signed_by cfg r sg tt ts = true <->
  exists got k, hex_decode sg = Some got /\ got <> [] /\
    In k (secrets_at cfg (ts * sec)) /\ k <> [] /\
    got = hmac k (string_to_sign tt (q_method r) (q_path r) (q_body r)).
Proof.
  unfold signed_by. destruct (hex_decode sg) as [[|g0 g]|].
  - split; [discriminate|]. intros (got & k & E & Hne & _). congruence.
  - rewrite sig_matches_spec. split.
    + intros (k & H). exists (g0 :: g), k. repeat split; try apply H. discriminate.
    + intros (got & k & E & _ & H). injection E as <-. exists k. exact H.
  - split; [discriminate|]. intros (got & k & E & _). discriminate E.
Qed.

(** Verify is three stages: the headers ([verify_pre]), the nonce cache, the signature.  The cache
    is stepped whenever the headers are there, whatever the signature turns out to be. *)
Lemma verify_eq cfg c now r :
  verify cfg c now r =
  if no_secrets_configured cfg then (true, c) else
  match verify_pre cfg r with
  | None => (false, c)
  | Some (sig_hex, ts_text, nonce, ts) =>
      let ac := cache_admit nonce (ts * sec) (h_tol cfg) now c in
      (fst ac && signed_by cfg r sig_hex ts_text ts, snd ac)
  end.
Proof.
  unfold Hmac.verify, verify_pre, signed_by.
  destruct (no_secrets_configured cfg); [reflexivity|].
  destruct (trim_space (header_get (h_sig cfg) (q_headers r))) as [|s1 s]; [reflexivity|].
  destruct (trim_space (header_get (h_ts cfg) (q_headers r))) as [|t1 t]; [reflexivity|].
  destruct (trim_space (header_get (h_nonce cfg) (q_headers r))) as [|n1 n]; [reflexivity|].
  destruct (parse_int (t1 :: t)) as [ts|]; [|reflexivity].
  destruct (cache_admit (n1 :: n) (ts * sec) (h_tol cfg) now c) as [fresh c1]. cbn [fst snd].
  destruct fresh; [|reflexivity].
  destruct (hex_decode (s1 :: s)) as [[|g0 g]|]; reflexivity.
Qed.

Lemma verify_pre_spec cfg r sg tt nn ts :
  verify_pre cfg r = Some (sg, tt, nn, ts) <->
  sg = trim_space (header_get (h_sig cfg) (q_headers r)) /\
  tt = trim_space (header_get (h_ts cfg) (q_headers r)) /\
  nn = trim_space (header_get (h_nonce cfg) (q_headers r)) /\
  sg <> [] /\ tt <> [] /\ nn <> [] /\ parse_int tt = Some ts.
Proof.
  unfold verify_pre. split.
  - destruct (trim_space (header_get (h_sig cfg) (q_headers r))) as [|s1 s]; [discriminate|].
    destruct (trim_space (header_get (h_ts cfg) (q_headers r))) as [|t1 t]; [discriminate|].
    destruct (trim_space (header_get (h_nonce cfg) (q_headers r))) as [|n1 n]; [discriminate|].
    destruct (parse_int (t1 :: t)) as [ts'|] eqn:P; [|discriminate].
    intros H. injection H as <- <- <- <-. repeat split; try discriminate. exact P.
  - intros (-> & -> & -> & N1 & N2 & N3 & P).
    destruct (trim_space (header_get (h_sig cfg) (q_headers r))); [contradiction|].
    destruct (trim_space (header_get (h_ts cfg) (q_headers r))); [contradiction|].
    destruct (trim_space (header_get (h_nonce cfg) (q_headers r))); [contradiction|].
    rewrite P. reflexivity.
Qed.

(** What a configuration must satisfy (guaranteed by Compile + loadAuth, see Properties/C08.v). *)
Definition hmac_configured (cfg : hmac_cfg) : Prop := no_secrets_configured cfg = false.

(** The accepted request, spelled out: everything the property statement lists. *)
Definition hmac_valid (cfg : hmac_cfg) (now : Z) (r : hreq) : Prop :=
  let sg := trim_space (header_get (h_sig cfg) (q_headers r)) in
  let tt := trim_space (header_get (h_ts cfg) (q_headers r)) in
  let nn := trim_space (header_get (h_nonce cfg) (q_headers r)) in
  sg <> [] /\ tt <> [] /\ nn <> [] /\
  exists ts, parse_int tt = Some ts /\
    (0 < h_tol cfg -> - h_tol cfg <= now - ts * sec <= h_tol cfg) /\
    exists got k, hex_decode sg = Some got /\ got <> [] /\
      In k (secrets_at cfg (ts * sec)) /\ k <> [] /\
      got = hmac k (string_to_sign tt (q_method r) (q_path r) (q_body r)).

Theorem verify_spec cfg c now r :
  hmac_configured cfg ->
  (fst (verify cfg c now r) = true <->
   hmac_valid cfg now r /\
   fst (cache_admit (trim_space (header_get (h_nonce cfg) (q_headers r)))
              (match parse_int (trim_space (header_get (h_ts cfg) (q_headers r))) with Some ts => ts * sec | None => 0 end)
              (h_tol cfg) now c) = true).
Proof.
  intros Hc. rewrite verify_eq, Hc. unfold hmac_valid. cbn zeta. split.
  - destruct (verify_pre cfg r) as [[[[sg tt] nn] ts]|] eqn:P; [|discriminate].
    apply verify_pre_spec in P. destruct P as (-> & -> & -> & N1 & N2 & N3 & PI).
    cbn [fst]. intros [A S]%andb_prop. rewrite PI.
    split; [|exact A]. repeat split; try assumption.
    exists ts. split; [reflexivity|]. split; [apply (admit_true _ _ _ _ _ A) | apply signed_by_spec, S].
  - intros [(N1 & N2 & N3 & ts & PI & _ & S) A]. rewrite PI in A.
    rewrite (proj2 (verify_pre_spec cfg r _ _ _ ts)) by (repeat split; assumption).
    cbn [fst]. rewrite A. apply signed_by_spec. exact S.
Qed.

Corollary verify_sound cfg c now r :
  hmac_configured cfg -> fst (verify cfg c now r) = true -> hmac_valid cfg now r.
Proof. intros Hc H. apply (verify_spec cfg c now r Hc) in H. tauto. Qed.

Lemma verify_true_admitted cfg c now r :
  hmac_configured cfg -> fst (verify cfg c now r) = true ->
  exists n t, admitted cfg c now r = Some (n, t).
Proof.
  intros Hc. rewrite verify_eq. unfold admitted. rewrite Hc.
  destruct (verify_pre cfg r) as [[[[sg tt] nn] ts]|]; [|discriminate].
  cbn [fst]. destruct (fst (cache_admit nn (ts * sec) (h_tol cfg) now c)); [eauto | discriminate].
Qed.

Lemma verify_cache cfg c now r :
  snd (verify cfg c now r) =
  if no_secrets_configured cfg then c else
  match verify_pre cfg r with
  | None => c
  | Some (_, _, nonce, ts) => snd (cache_admit nonce (ts * sec) (h_tol cfg) now c)
  end.
Proof.
  rewrite verify_eq. destruct (no_secrets_configured cfg); [reflexivity|].
  destruct (verify_pre cfg r) as [[[[sg tt] nn] ts]|]; reflexivity.
Qed.

Lemma hex_digit_inj a b : (a < 16)%N -> (b < 16)%N -> hex_digit a = hex_digit b -> a = b.
Proof.
  unfold hex_digit. intros Ha Hb.
  destruct (N.ltb_spec a 10), (N.ltb_spec b 10); lia.
Qed.

Lemma hex_byte_inj x y :
  (x < 256)%N -> (y < 256)%N ->
  hex_digit (x / 16 mod 16) = hex_digit (y / 16 mod 16) -> hex_digit (x mod 16) = hex_digit (y mod 16) ->
  x = y.
Proof.
  intros Hx Hy H1 H2.
  apply hex_digit_inj in H1, H2; try (apply N.mod_lt; discriminate).
  rewrite !N.mod_small in H1 by (apply N.div_lt_upper_bound; [discriminate | assumption]).
  rewrite (N.div_mod x 16), (N.div_mod y 16), H1, H2 by discriminate. reflexivity.
Qed.

Lemma hex_encode_inj a b :
  Forall (fun x => (x < 256)%N) a -> Forall (fun x => (x < 256)%N) b ->
  hex_encode a = hex_encode b -> a = b.
Proof.
  revert b. induction a as [|x a IH]; intros [|y b] Ha Hb H; try discriminate H; [reflexivity|].
  cbn [hex_encode flat_map app] in H. injection H as H1 H2 H.
  inversion Ha; inversion Hb; subst.
  f_equal; [apply hex_byte_inj | apply IH]; assumption.
Qed.

Lemma hex_digit_not_nl n : (n < 16)%N -> hex_digit n <> 10%N.
Proof. unfold hex_digit. intros H. destruct (N.ltb_spec n 10); lia. Qed.

Lemma hex_encode_no_nl l : ~ In 10%N (hex_encode l).
Proof.
  induction l as [|x l IH]; simpl; [tauto|].
  intros [H|[H|H]]; [| |exact (IH H)].
  - revert H. apply hex_digit_not_nl. apply N.mod_lt. lia.
  - revert H. apply hex_digit_not_nl. apply N.mod_lt. lia.
Qed.

(** the string to sign determines its four fields: a list is cut in one way only at the first
    (at the last) occurrence of a separator *)
Lemma app_sep_inj {A} (x : A) a a' rest rest' :
  ~ In x a -> ~ In x a' -> a ++ x :: rest = a' ++ x :: rest' -> a = a' /\ rest = rest'.
Proof.
  revert a'. induction a as [|y a IH]; intros [|y' a'] Ha Ha' H; cbn [app] in H.
  - injection H as ->. auto.
  - injection H as -> _. contradiction Ha'. left. reflexivity.
  - injection H as -> _. contradiction Ha. left. reflexivity.
  - injection H as -> H. destruct (IH a') as [-> ->]; auto; intros F; [apply Ha | apply Ha']; right; exact F.
Qed.

Lemma app_sep_inj_last {A} (x : A) a a' b b' :
  ~ In x b -> ~ In x b' -> a ++ x :: b = a' ++ x :: b' -> a = a' /\ b = b'.
Proof.
  intros Hb Hb' H. apply (f_equal (@rev A)) in H.
  rewrite !rev_app_distr in H. cbn [rev] in H. rewrite <- !app_assoc in H.
  apply app_sep_inj in H; try (rewrite <- in_rev; assumption).
  destruct H as [R1 R2]. split.
  - rewrite <- (rev_involutive a), <- (rev_involutive a'). congruence.
  - rewrite <- (rev_involutive b), <- (rev_involutive b'). congruence.
Qed.

Theorem string_to_sign_inj ts m p b ts' m' p' b' :
  ~ In 10%N ts -> ~ In 10%N ts' -> ~ In 10%N m -> ~ In 10%N m' ->
  (forall x, Forall (fun y => (y < 256)%N) (sha256 x)) ->
  string_to_sign ts m p b = string_to_sign ts' m' p' b' ->
  ts = ts' /\ m = m' /\ p = p' /\ sha256 b = sha256 b'.
Proof.
  intros Hts Hts' Hm Hm' Hsha H. unfold Hmac.string_to_sign in H. cbn [app] in H.
  apply app_sep_inj in H; auto. destruct H as [E1 H].
  apply app_sep_inj in H; auto. destruct H as [E2 H].
  apply app_sep_inj_last in H; try apply hex_encode_no_nl. destruct H as [E3 H].
  apply hex_encode_inj in H; auto.
Qed.

(** parse_int accepts only sign + digits: no newline in an accepted timestamp text *)
Lemma digits_acc_no_nl s acc v : digits_acc acc s = Some v -> ~ In 10%N s.
Proof.
  revert acc. induction s as [|b tl IH]; intros acc H; simpl in *; [tauto|].
  unfold digit_val in H. destruct ((48 <=? b)%N && (b <=? 57)%N) eqn:D; [|discriminate].
  apply andb_true_iff in D. destruct D as [D1 D2]. apply N.leb_le in D1.
  intros [E|E]; [subst; lia | exact (IH _ H E)].
Qed.

Lemma parse_int_no_nl s v : parse_int s = Some v -> ~ In 10%N s.
Proof.
  unfold parse_int. destruct s as [|c tl]; [discriminate|].
  destruct ((c =? 43)%N || (c =? 45)%N) eqn:S.
  - destruct tl as [|d tl']; [discriminate|].
    destruct (digits_acc 0 (d :: tl')) eqn:D; [|discriminate]. intros _.
    apply digits_acc_no_nl in D. intros [E|E]; [|exact (D E)].
    subst c. simpl in S. discriminate.
  - destruct (digits_acc 0 (c :: tl)) eqn:D; [|discriminate]. intros _.
    apply digits_acc_no_nl in D. exact D.
Qed.

End Crypto.
