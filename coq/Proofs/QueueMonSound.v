(** The executable monitors used on implementation traces never raise an alarm on a trace of the
    model.  A monitor looks ids up in [ev_before] and [ev_after]; a step of the model is a per-message
    map plus an append: [view] relates the two once.  [mon_all_on_run] lifts any of the six checks from
    every step to every trace. *)
From Coq Require Import List ZArith NArith Bool.
From HK Require Import Model.Queue Model.QueueMon Proofs.ListFacts Proofs.QueueBase Proofs.QueueInv
  Proofs.QueueInvStep Proofs.QueueStep Proofs.QueueLease Proofs.QueueFence Proofs.QueueManage.
Import ListNotations.
Open Scope Z_scope.

Record view (e : event) (pm : msg -> option msg) (news : list msg) : Prop := {
  view_nodup : NoDup (ids (ev_before e));
  view_imm : forall m m', In m (ev_before e) -> pm m = Some m' -> same_imm m m';
  view_after : ev_after e = apply_pm pm (ev_before e) ++ news;
  view_fresh : forall n, In n news -> ~ In (m_id n) (ids (ev_before e)) }.

Lemma view_pm e pm :
  NoDup (ids (ev_before e)) -> (forall m m', In m (ev_before e) -> pm m = Some m' -> same_imm m m') ->
  ev_after e = apply_pm pm (ev_before e) -> view e pm [].
Proof. intros ND P E. split; [exact ND | exact P | rewrite app_nil_r; exact E | intros n []]. Qed.

Lemma view_same e : NoDup (ids (ev_before e)) -> ev_after e = ev_before e -> view e (fun m => Some m) [].
Proof.
  intros ND E. apply view_pm; [exact ND | | rewrite apply_pm_id; exact E].
  intros m m' _ H. inversion H; subst. apply same_imm_refl.
Qed.

Section View.
  Variables (e : event) (pm : msg -> option msg) (news : list msg).
  Hypothesis V : view e pm news.

  Lemma view_find m : In m (ev_before e) -> find_id (m_id m) (ev_after e) = pm m.
  Proof.
    destruct V as [ND P E F]. intros Hm. rewrite E, find_id_app, find_id_apply_pm_on, (find_id_In_NoDup _ _ ND Hm).
    - destruct (pm m) as [m'|]; [reflexivity|]. apply find_id_None. intros Hin.
      apply in_map_iff in Hin. destruct Hin as [n [En Hn]]. apply (F n Hn). rewrite En. apply in_map. exact Hm.
    - intros x x' Hx Ex. symmetry. apply (P x x' Hx Ex).
    - exact ND.
  Qed.

  Lemma view_survivor m : In m (ev_before e) -> survivor e m = pm m.
  Proof.
    intros Hm. unfold survivor. rewrite (view_find m Hm). destruct (pm m) as [m'|] eqn:Ep; [|reflexivity].
    rewrite (same_imm_imm_eq _ _ (view_imm _ _ _ V m m' Hm Ep)). reflexivity.
  Qed.

  Lemma view_gone m : In m (ev_before e) -> pm m = None -> ~ In (m_id m) (ids (ev_after e)).
  Proof. intros Hm Ep. apply find_id_None. rewrite (view_find m Hm). exact Ep. Qed.

  Lemma view_inserted : inserted e = news.
  Proof.
    destruct V as [ND P E F]. unfold inserted. rewrite E, filter_app, filter_none, filter_all; [reflexivity | |].
    - intros n Hn. apply F, find_id_None in Hn. rewrite Hn. reflexivity.
    - intros m' Hm'. apply apply_pm_In in Hm'. destruct Hm' as [m [Hm Ep]]. pose proof (P m m' Hm Ep) as S.
      destruct S as [Eid S]. rewrite <- Eid, (find_id_In_NoDup _ _ ND Hm), same_imm_imm_eq; [reflexivity | split; assumption].
  Qed.

  Lemma view_expected :
    forallb (fun m => opt_msg_eqb (find_id (m_id m) (ev_after e)) (pm m)) (ev_before e) = true.
  Proof. apply forallb_forall. intros m Hm. rewrite (view_find m Hm). apply opt_msg_eqb_refl. Qed.
End View.

(** [mon_all] threads the lease ids handed out so far and the insertion order through the trace; no
    proof depends on the second.  [R] carries the first (C03) and premises about the state or the rest
    of the history (C04, C05, C12, C14), [Pe] premises about the events themselves. *)
Lemma mon_all_on_run fl c (pick : bool * bool * bool * bool * bool * bool -> bool)
      (R : state -> list N -> list (op * oracle) -> Prop) (Pe : event -> Prop) :
  (forall s iss x o tl s' r, Inv s -> R s iss ((x, o) :: tl) -> step fl c s x o = (s', r) ->
     let e := mkEvent x o r (msgs s) (msgs s') in
     R s' (iss ++ item_leases r) tl
     /\ (Pe e -> forall ins,
           pick (c02_event c e, c03_event iss e, c04_event c e, c05_event e, c12_event fl c ins e, c14_event e) = true)) ->
  forall xs s iss ins, Inv s -> R s iss xs -> Forall Pe (fst (run fl c s xs)) ->
  forallb pick (mon_all fl c iss ins (fst (run fl c s xs))) = true.
Proof.
  intros Hstep. induction xs as [|[x o] tl IH]; intros s iss ins I HR HP; [reflexivity|].
  cbn [run] in *. pose proof (step_inv fl c s x o I) as I'.
  destruct (step fl c s x o) as [s' r] eqn:Es. destruct (Hstep s iss x o tl s' r I HR Es) as [HR' Hev].
  specialize (IH s' (iss ++ item_leases r) (upd_ins ins (mkEvent x o r (msgs s) (msgs s'))) I' HR').
  destruct (run fl c s' tl) as [evs sf]. cbn [fst mon_all forallb ev_res] in *.
  inversion HP as [|? ? Hhd Htl]; subst. rewrite (Hev Hhd ins). exact (IH Htl).
Qed.

Lemma c14_by_ids now k idl o s s' r :
  Inv s -> step_manage now k idl s = (s', r) -> c14_event (mkEvent (Manage now k idl) o r (msgs s) (msgs s')) = true.
Proof.
  intros I H. unfold step_manage in H. inversion H; subst s' r; clear H.
  match goal with |- c14_event ?ev = true => set (e := ev) end.
  assert (V : view e (pm_manage now k (norm_ids idl [])) []).
  { apply view_pm; [apply I | intros m m' _; apply pm_manage_imm | reflexivity]. }
  unfold c14_event. cbn [ev_op ev_res e]. rewrite (view_inserted _ _ _ V). unfold selected. rewrite Z.eqb_refl, !andb_true_r.
  exact (view_expected _ _ _ V).
Qed.

(** a by-filter run selects ids of messages in an allowed state only, so the guard of the model
    ([pm_manage]) and that of the monitor (membership alone) coincide *)
Lemma c14_by_filter now k f o s s' r :
  Inv s -> step_manage_f now k f s = (s', r) -> c14_event (mkEvent (ManageF now k f) o r (msgs s) (msgs s')) = true.
Proof.
  intros I H. pose proof (filter_count_is_matched now k f s I) as Hcount.
  unfold step_manage_f in H, Hcount. set (idl := filter_select k f (msgs s)) in *.
  destruct (f_preview f) eqn:Ep; inversion H; subst s' r; clear H.
  all: match goal with |- c14_event ?ev = true => set (e := ev) end.
  all: unfold c14_event; cbn [ev_op ev_res ev_before e]; fold idl; rewrite Ep; cbn [Bool.eqb]; rewrite Z.eqb_refl; cbn [andb].
  - assert (V : view e (fun m => Some m) []) by (apply view_same; [apply I | reflexivity]).
    rewrite (view_inserted _ _ _ V). exact (view_expected _ _ _ V).
  - assert (V : view e (pm_manage now k idl) []).
    { apply view_pm; [apply I | intros m m' _; apply pm_manage_imm | reflexivity]. }
    destruct (Hcount eq_refl) as [n En]. injection En as E1 E2. rewrite E1, E2, (view_inserted _ _ _ V), Z.eqb_refl. cbn [andb].
    apply forallb_forall. intros m Hm. rewrite (view_find _ _ _ V m Hm). unfold pm_manage.
    destruct (memN (m_id m) idl) eqn:Em; [|apply opt_msg_eqb_refl].
    destruct (filter_select_spec k f (msgs s)) as [_ [_ [_ [_ [_ Hall]]]]].
    apply memN_In in Em. destruct (Hall _ Em) as [m1 [H1 [Ei [_ Ea]]]].
    assert (m1 = m) by (apply (nodup_ids_inj (msgs s)); [apply I | | |]; assumption). subst m1. rewrite Ea.
    apply opt_msg_eqb_refl.
Qed.

(** operations the Store interface actually has: there is no by-filter form of the DLQ operations *)
Definition store_op (x : op) : Prop :=
  match x with ManageF _ (MRequeueDead | MDeleteDead) _ => False | _ => True end.

Theorem c14_event_holds fl c s x o s' r :
  store_op x -> Inv s -> step fl c s x o = (s', r) -> c14_event (mkEvent x o r (msgs s) (msgs s')) = true.
Proof.
  intros Hso I H. destruct x; try reflexivity.
  - exact (c14_by_ids _ _ _ o s s' r I H).
  - destruct k; try contradiction; exact (c14_by_filter _ _ _ o s s' r I H).
Qed.

Theorem P_C14_holds_on_model fl c xs :
  Forall (fun xo : op * oracle => store_op (fst xo)) xs -> P_C14 fl c (model_trace fl c xs) = true.
Proof.
  intros Hs.
  apply (mon_all_on_run fl c _ (fun _ _ => Forall (fun xo => store_op (fst xo))) (fun _ => True));
    [| exact inv_init | exact Hs | apply Forall_forall; trivial].
  intros s iss x o tl s' r I Hxs Es e. inversion Hxs; subst. split; [assumption|].
  intros _ ins. apply (c14_event_holds fl c s x o s' r); assumption.
Qed.

Lemma lease_ids_In l x : In x (lease_ids l) <-> exists m, In m l /\ m_lease m = Some x.
Proof.
  unfold lease_ids. rewrite in_flat_map. split.
  - intros [m [Hm Hx]]. exists m. split; [exact Hm|]. destruct (m_lease m) as [y|]; [|destruct Hx].
    destruct Hx as [Hx | []]. subst. reflexivity.
  - intros [m [Hm L]]. exists m. split; [exact Hm|]. rewrite L. left. reflexivity.
Qed.

Lemma lease_ids_NoDup l : NoDup (ids l) -> lease_inj l -> NoDup (lease_ids l).
Proof.
  induction l as [|a tl IH]; intros ND LI; [constructor|].
  inversion ND as [|? ? Ha Htl]; subst.
  assert (LItl : lease_inj tl) by (intros m1 m2 x H1 H2; apply LI; right; assumption).
  specialize (IH Htl LItl). unfold lease_ids in *. simpl. destruct (m_lease a) as [x|] eqn:E; simpl; [|exact IH].
  constructor; [|exact IH]. intros Hin. fold (lease_ids tl) in Hin. apply lease_ids_In in Hin. destruct Hin as [m [Hm L]].
  assert (a = m) by (apply (LI a m x); [left; reflexivity | right; exact Hm | exact E | exact L]). subst m.
  apply Ha. apply in_map. exact Hm.
Qed.

(** nothing but a dequeue creates a lease or moves one ([change_lease_source]) *)
Lemma c03_leases_kept fl c s x o s' r :
  Inv s -> step fl c s x o = (s', r) -> is_dequeue x = false ->
  forallb (fun m' => match m_lease m' with
                     | None => true
                     | Some l => match find_id (m_id m') (msgs s) with
                                 | Some m => optN_eqb (m_lease m) (Some l)
                                 | None => false
                                 end
                     end) (msgs s') = true.
Proof.
  intros I H Dq. apply forallb_forall. intros m' Hm'. destruct (m_lease m') as [l0|] eqn:L; [|reflexivity].
  destruct (step_sound fl c s x o s' r I H) as [pm [news [E [P N]]]].
  rewrite E in Hm'. apply in_app_or in Hm'. destruct Hm' as [Hm' | Hm'].
  - apply apply_pm_In in Hm'. destruct Hm' as [m [Hm Ep]]. specialize (P m Hm). rewrite Ep in P.
    destruct (change_same_imm _ _ _ _ _ P) as [Eid _]. rewrite <- Eid, (find_id_In_NoDup _ _ (inv_nodup _ _ I) Hm).
    destruct (change_lease_source _ _ _ _ _ l0 P L) as [Lm | Hin]; [rewrite Lm; apply optN_eqb_refl|].
    exfalso. pose proof (step_issued fl c s x o) as SI. rewrite H in SI. cbn [fst snd] in SI.
    destruct SI as [[_ Hn] | [n0 [r0 [t0 [b0 [tt0 [Ex _]]]]]]]; [rewrite Hn in Hin; destruct Hin | subst x; discriminate].
  - destruct N as [N | [_ [ies [_ En]]]]; [subst news; destruct Hm'|].
    subst news. apply in_map_iff in Hm'. destruct Hm' as [q [Eq _]]. subst m'. discriminate.
Qed.

Lemma c03_dequeue fl c now route target batch ttl o s s' items iss :
  Inv s -> incl iss (issued s) -> step_dequeue fl c now route target batch ttl o s = (s', RItems items) ->
  let e := mkEvent (Dequeue now route target batch ttl) o (RItems items) (msgs s) (msgs s') in
  nodupN (item_ids (ev_res e)) && nodupN (item_leases (ev_res e))
  && forallb (fun l => negb (memN l iss)) (item_leases (ev_res e))
  && forallb (c03_item e route target) items = true.
Proof.
  intros I Hiss H e.
  destruct (dequeue_sound fl c now route target batch ttl o s s' items I H) as [A [B [_ Hall]]].
  unfold item_ids, item_leases. cbn [ev_res e deq_items].
  rewrite (proj2 (nodupN_NoDup _) A), (proj2 (nodupN_NoDup _) B). cbn [andb]. apply andb_true_iff. split.
  - apply forallb_forall. intros l Hl. apply negb_true_iff, memN_false. intros Hin.
    apply in_map_iff in Hl. destruct Hl as [[[[i0 l0] a0] u0] [El Hit]]. cbn [fst snd] in El. subst l0.
    destruct (Hall _ _ _ _ Hit) as [m0 [_ [_ [_ [_ [_ [_ [Nin _]]]]]]]]. apply Nin, Hiss, Hin.
  - apply forallb_forall. intros [[[i0 l0] a0] u0] Hit.
    destruct (Hall _ _ _ _ Hit) as [m0 [F2 [R [F3 [Ea [Eu [Hlt [Nin _]]]]]]]].
    destruct (deq_ready_origin fl c now route target o s i0 m0 I F2 R) as [m [Fb [Eatt Hb]]].
    unfold c03_item. cbn [op_now ev_op ev_before ev_after e]. rewrite Fb, F3, Hb.
    cbn [leased_version upd is_leased m_st st_eqb m_lease optN_eqb m_attempt m_until andb].
    subst a0 u0. rewrite N.eqb_refl, Eatt, !Z.eqb_refl, (proj2 (Z.ltb_lt _ _) Hlt). cbn [andb].
    apply negb_true_iff, memN_false. intros Hin. apply lease_ids_In in Hin. destruct Hin as [mm [Hmm Lmm]].
    apply Nin, (inv_liss _ _ I mm l0 Hmm Lmm).
Qed.

Theorem c03_event_holds fl c s x o s' r iss :
  Inv s -> incl iss (issued s) -> step fl c s x o = (s', r) -> r <> RBadOracle ->
  c03_event iss (mkEvent x o r (msgs s) (msgs s')) = true.
Proof.
  intros I Hiss H Hr.
  pose proof (step_inv_eq fl c s x o s' r I H) as I'.
  unfold c03_event. cbn [ev_op ev_res ev_before ev_after].
  rewrite (proj2 (nodupN_NoDup _) (lease_ids_NoDup _ (inv_nodup _ _ I') (inv_linj _ _ I'))). cbn [andb].
  destruct x; try exact (c03_leases_kept fl c s _ o s' r I H eq_refl).
  destruct (dequeue_answers _ _ _ _ _ _ _ _ _ _ _ H) as [E | [items E]]; [contradiction | subst r].
  exact (c03_dequeue fl c _ _ _ _ _ o s s' items iss I Hiss H).
Qed.

(** P_C03 holds on every model trace whose dequeue answers were accepted as valid choices *)
Theorem P_C03_holds_on_model fl c xs :
  Forall (fun e => ev_res e <> RBadOracle) (model_trace fl c xs) -> P_C03 fl c (model_trace fl c xs) = true.
Proof.
  intros H.
  apply (mon_all_on_run fl c _ (fun s iss _ => incl iss (issued s)) (fun e => ev_res e <> RBadOracle));
    [| exact inv_init | intros l [] | exact H].
  intros s iss x o tl s' r I Hiss Es e. pose proof (step_handed_out fl c s x o) as Hh. rewrite Es in Hh. cbn [fst snd] in Hh. split.
  - rewrite Hh. apply incl_app_app; [exact Hiss | apply incl_refl].
  - intros Hr ins. exact (c03_event_holds fl c s x o s' r iss I Hiss Es Hr).
Qed.
