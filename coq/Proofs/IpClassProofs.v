(** Go's byte tests (Model/IpClass.v) against the RFC address ranges (Model/IpSpec.v).

    Every class is a union of CIDR blocks.  A test on the leading bytes of an address says
    [x / d = k] for a power of two [d], and that is the range [k * d .. k * d + (d - 1)]
    ([div_eq_between]).  The bounds written in Model/IpSpec.v are closed terms, so they agree
    with [k * d] and [k * d + (d - 1)] by computation. *)
From Coq Require Import NArith List Bool Lia ZifyN.
From HK Require Import Model.IpClass Model.IpSpec.
Import ListNotations.
Local Open Scope N_scope.

(** The written-out constants are the powers of two they stand for. *)
Lemma consts_ok :
  c8 = 2 ^ 8 /\ c16 = 2 ^ 16 /\ c24 = 2 ^ 24 /\ c32 = 2 ^ 32 /\
  c112 = 2 ^ 112 /\ c120 = 2 ^ 120 /\ c128 = 2 ^ 128.
Proof. vm_compute. repeat split. Qed.

Lemma div_eq_between x d k : d <> 0 -> (x / d = k <-> between (k * d) (k * d + (d - 1)) x).
Proof.
  intros Hd. unfold between. split.
  - intros <-. pose proof (N.div_mod x d Hd). pose proof (N.mod_upper_bound x d Hd). lia.
  - intros [Hlo Hhi]. symmetry. apply N.div_unique with (r := x - k * d); lia.
Qed.

Lemma digits_eq y e k r : r < e -> (y / e = k /\ y mod e = r <-> y = k * e + r).
Proof.
  intros Hr. split.
  - intros [<- <-]. rewrite N.mul_comm. apply N.div_mod. lia.
  - intros ->. rewrite (N.mul_comm k e).
    split; symmetry; [apply N.div_unique with r | apply N.mod_unique with k]; trivial.
Qed.

(** Two tests on neighbouring bytes ([x / (d * e)] the first, [(x / d) mod e] the second) are one
    test on the longer prefix; *)
Lemma byte_pair x d e k r :
  d <> 0 -> r < e -> (x / (d * e) = k /\ (x / d) mod e = r <-> x / d = k * e + r).
Proof. intros Hd Hr. rewrite <- N.div_div by lia. apply digits_eq, Hr. Qed.

(** also when the second byte is masked down to its leading bits ([_ / m], as [b & 0xf0] does). *)
Lemma byte_prefix x d m e k r :
  d <> 0 -> m <> 0 -> r < e ->
  (x / (d * (m * e)) = k /\ (x / d) mod (m * e) / m = r <-> x / (d * m) = k * e + r).
Proof.
  intros Hd Hm Hr. assert (He : e <> 0) by lia.
  rewrite N.mod_mul_r, (N.mul_comm m (_ mod e)), N.div_add by assumption.
  rewrite (N.div_small (_ mod m)), N.add_0_l, N.div_div, N.mul_assoc
    by (assumption || apply N.mod_upper_bound, Hm).
  apply byte_pair; [apply N.neq_mul_0; split; assumption | exact Hr].
Qed.

Lemma div_pow2_coarser x y n m : n <= m -> x / 2 ^ n = y / 2 ^ n -> x / 2 ^ m = y / 2 ^ m.
Proof.
  intros Hnm E. replace m with (n + (m - n)) by lia.
  rewrite N.pow_add_r, <- !N.div_div, E by (apply N.pow_nonzero; discriminate). reflexivity.
Qed.

(** The IPv4-mapped block ::ffff:0:0/96. *)
Lemma mapped_block v : v / c32 = 65535 <-> between mapped_lo mapped_hi v.
Proof. exact (div_eq_between v c32 65535 ltac:(discriminate)). Qed.

Lemma mapped_low_bits v : v / c32 = 65535 -> v mod c32 = v - mapped_lo.
Proof. intros E. rewrite N.mod_eq, E by discriminate. reflexivity. Qed.

Lemma is4in6_spec a : is4in6 a = true <-> between mapped_lo mapped_hi a.
Proof. unfold is4in6. rewrite N.eqb_eq. apply mapped_block. Qed.

Lemma div_pow2_shift_mapped k a v :
  k <= 32 -> ((mapped_lo + a) / 2 ^ k = (mapped_lo + v) / 2 ^ k <-> a / 2 ^ k = v / 2 ^ k).
Proof.
  intros Hk.
  assert (Hm : mapped_lo = 65535 * 2 ^ (32 - k) * 2 ^ k).
  { rewrite <- N.mul_assoc, <- N.pow_add_r. replace (32 - k + k) with 32 by lia. reflexivity. }
  rewrite Hm, !N.div_add_l by (apply N.pow_nonzero; discriminate). apply N.add_cancel_l.
Qed.

(** [To4] picks out exactly the addresses that denote an IPv4 address, with that value. *)
Lemma to4_denotes i :
  match to4 i, denotes i with
  | Some v, A4 v' => v = v'
  | None, A6 w => ip_fam i = F6 /\ w = ip_val i
  | None, ANone => ip_fam i = FBad
  | _, _ => False
  end.
Proof.
  destruct i as [[| |] v]; cbn [to4 denotes ip_fam ip_val]; try reflexivity.
  destruct (N.eqb_spec (v / c32) 65535) as [E|E].
  - rewrite (mapped_low_bits v E). apply mapped_block in E. destruct E as [Hlo Hhi].
    apply N.leb_le in Hlo, Hhi. rewrite Hlo, Hhi. reflexivity.
  - destruct (_ && _) eqn:R; [|split; reflexivity].
    apply E, mapped_block. rewrite andb_true_iff, !N.leb_le in R. exact R.
Qed.

Lemma to4_Some i v : to4 i = Some v <-> denotes i = A4 v.
Proof.
  pose proof (to4_denotes i) as H.
  destruct (to4 i) as [v'|], (denotes i) as [v''|w|]; try contradiction.
  - subst v''. split; congruence.
  - split; discriminate.
  - split; discriminate.
Qed.

(** The shape all of them have: a test [g4] on the [To4] form, else a test [b6] on a 16-byte
    value.  ([b6] is a boolean, not a function of [ip_val i], so that [apply] finds it.) *)
Lemma class_spec i (g4 : N -> bool) (b6 : bool) (r4 r6 : N -> Prop) :
  (forall v, g4 v = true <-> r4 v) -> (b6 = true <-> r6 (ip_val i)) ->
  (match to4 i with Some v => g4 v | None => is16 i && b6 end = true <->
   match denotes i with A4 v => r4 v | A6 w => r6 w | ANone => False end).
Proof.
  intros H4 H6. pose proof (to4_denotes i) as H. unfold is16.
  destruct (to4 i) as [v|], (denotes i) as [v'|w|]; try contradiction.
  - subst v'. apply H4.
  - destruct H as [-> ->]. apply H6.
  - rewrite H. split; [discriminate | contradiction].
Qed.

Lemma equal_v6const_is16 i k : equal_v6const i k = is16 i && (ip_val i =? k).
Proof. destruct i as [[| |] v]; reflexivity. Qed.

Lemma is_loopback_spec i : is_loopback i = true <-> spec_loopback i.
Proof.
  unfold is_loopback, spec_loopback. rewrite equal_v6const_is16. apply class_spec.
  - intros v. rewrite N.eqb_eq. exact (div_eq_between v c24 127 ltac:(discriminate)).
  - apply N.eqb_eq.
Qed.

Lemma is_private_spec i : is_private i = true <-> spec_private i.
Proof.
  unfold is_private, spec_private. apply class_spec.
  - intros v. rewrite !orb_true_iff, !andb_true_iff, !N.eqb_eq, or_assoc. unfold a0, a1.
    rewrite (div_eq_between v c24 10) by discriminate.
    (* 172.16/12: [c24 = c16 * (16 * 16)] *)
    rewrite (byte_prefix v c16 16 16 172 1) by (discriminate || reflexivity).
    rewrite (div_eq_between v (c16 * 16)) by discriminate.
    rewrite (byte_pair v c16 256 192 168) by (discriminate || reflexivity).
    rewrite (div_eq_between v c16) by discriminate.
    reflexivity.
  - (* fc00::/7 *)
    unfold s0. rewrite N.eqb_eq, N.div_div by discriminate.
    exact (div_eq_between _ (c120 * 2) 126 ltac:(discriminate)).
Qed.

Lemma is_ll_unicast_spec i : is_ll_unicast i = true <-> spec_link_local i.
Proof.
  unfold is_ll_unicast, spec_link_local. rewrite <- andb_assoc. apply class_spec.
  - intros v. rewrite andb_true_iff, !N.eqb_eq. unfold a0, a1.
    rewrite (byte_pair v c16 256 169 254) by (discriminate || reflexivity).
    exact (div_eq_between v c16 _ ltac:(discriminate)).
  - (* fe80::/10: [c120 = c112 * (64 * 4)] *)
    rewrite andb_true_iff, !N.eqb_eq. unfold s0, s1.
    rewrite (byte_prefix _ c112 64 4 254 2) by (discriminate || reflexivity).
    exact (div_eq_between _ (c112 * 64) _ ltac:(discriminate)).
Qed.

Lemma is_multicast_spec i : is_multicast i = true <-> spec_multicast i.
Proof.
  unfold is_multicast, spec_multicast. apply class_spec.
  - intros v. unfold a0. rewrite N.eqb_eq, N.div_div by discriminate.
    exact (div_eq_between v (c24 * 16) 14 ltac:(discriminate)).
  - rewrite N.eqb_eq. exact (div_eq_between _ c120 255 ltac:(discriminate)).
Qed.

Lemma is_ll_multicast_multicast i : is_ll_multicast i = true -> is_multicast i = true.
Proof.
  unfold is_ll_multicast, is_multicast. destruct (to4 i) as [v|]; rewrite !andb_true_iff.
  - rewrite !N.eqb_eq. intros [[E _] _]. rewrite E. reflexivity.
  - intros [H _]. exact H.
Qed.

(** [IP.Equal] with a 4-byte constant holds for its 4-byte and its mapped 16-byte form. *)
Lemma equal_v4const_denotes i k : k < c32 -> (equal_v4const i k = true <-> denotes i = A4 k).
Proof.
  intros Hk. rewrite <- to4_Some.
  destruct i as [[| |] v]; cbn [equal_v4const to4 ip_fam ip_val]; rewrite ?N.eqb_eq.
  - split; congruence.
  - rewrite <- (digits_eq v c32 65535 k Hk).
    destruct (N.eqb_spec (v / c32) 65535) as [E|E]; split; try discriminate.
    + intros [_ <-]. reflexivity.
    + intros [= <-]. split; [exact E | reflexivity].
    + intros [E' _]. contradiction.
  - split; discriminate.
Qed.

Lemma equal_v6const_denotes i k : k < mapped_lo -> (equal_v6const i k = true <-> denotes i = A6 k).
Proof.
  intros Hk. destruct i as [[| |] v]; cbn [equal_v6const denotes ip_fam ip_val];
    try (split; discriminate).
  rewrite N.eqb_eq. split.
  - intros ->. apply N.leb_gt in Hk. rewrite Hk. reflexivity.
  - destruct (_ && _); [discriminate | congruence].
Qed.

Lemma is_unspecified_spec i : is_unspecified i = true <-> spec_unspecified i.
Proof.
  unfold is_unspecified, spec_unspecified.
  rewrite orb_true_iff, (equal_v4const_denotes i 0), (equal_v6const_denotes i 0) by reflexivity.
  destruct (denotes i); intuition congruence.
Qed.

Lemma bcast_spec i : equal_v4const i 4294967295 = true <-> spec_broadcast i.
Proof.
  unfold spec_broadcast. rewrite equal_v4const_denotes by reflexivity.
  change (quad 255 255 255 255) with 4294967295. destruct (denotes i); intuition congruence.
Qed.

Lemma is_allowed_ip_spec i :
  is_allowed_ip i = true <->
  ip_fam i <> FBad /\ ~ spec_loopback i /\ ~ spec_private i /\ ~ spec_link_local i /\
  ~ spec_multicast i /\ ~ spec_unspecified i /\ ~ spec_broadcast i.
Proof.
  assert (E : is_allowed_ip i =
              negb (is_loopback i || is_ll_unicast i || is_ll_multicast i || is_multicast i
                    || is_unspecified i)
              && negb (is_private i) && is_global_unicast i).
  { unfold is_allowed_ip. destruct (_ || _); [reflexivity|].
    destruct (is_private i); [reflexivity|]. destruct (is_global_unicast i); reflexivity. }
  assert (Hf : fam_eqb (ip_fam i) F4 || fam_eqb (ip_fam i) F6 = true <-> ip_fam i <> FBad).
  { destruct (ip_fam i); cbn; intuition congruence. }
  (* the link-local multicast test adds nothing to the multicast test *)
  assert (Hll : is_multicast i = false -> is_ll_multicast i = false).
  { intros Hm. destruct (is_ll_multicast i) eqn:L; [|reflexivity].
    rewrite (is_ll_multicast_multicast i L) in Hm. discriminate. }
  rewrite <- is_loopback_spec, <- is_private_spec, <- is_ll_unicast_spec, <- is_multicast_spec,
          <- is_unspecified_spec, <- bcast_spec, !not_true_iff_false, E.
  unfold is_global_unicast.
  rewrite !andb_true_iff, !negb_true_iff, !orb_false_iff, Hf. tauto.
Qed.

Lemma forbidden_not_allowed i : spec_forbidden i -> is_allowed_ip i = false.
Proof.
  intros H. apply not_true_iff_false. rewrite is_allowed_ip_spec.
  intros (_ & N1 & N2 & N3 & N4 & N5 & _).
  (* named one by one: [contradiction] would compare the class definitions with each other *)
  destruct H as [A|[A|[A|[A|A]]]]; [exact (N1 A) | exact (N2 A) | exact (N3 A) | exact (N4 A) | exact (N5 A)].
Qed.

Lemma shift_xor_zero x y n : (N.shiftr (N.lxor x y) n =? 0) = true <-> y / 2 ^ n = x / 2 ^ n.
Proof.
  rewrite N.eqb_eq, N.shiftr_lxor, N.lxor_eq_0_iff, !N.shiftr_div_pow2. split; congruence.
Qed.

Lemma prefix_contains_spec p a :
  prefix_contains p a = true <->
  px_fam p = ip_fam a /\ ip_fam a <> FBad /\
  spec_in_block (fam_bits (px_fam p)) (px_bits p) (px_addr p) (ip_val a).
Proof.
  unfold prefix_contains, spec_in_block, blk_size.
  destruct (px_fam p), (ip_fam a);
    try (split; [discriminate | intros (? & ? & _); congruence]).
  all: rewrite andb_true_iff, shift_xor_zero, N.leb_le; intuition congruence.
Qed.

Lemma netip_from_ip_denotes i :
  netip_from_ip i =
  match denotes i with
  | A4 v => Some {| ip_fam := F4; ip_val := v |}
  | A6 w => Some {| ip_fam := F6; ip_val := w |}
  | ANone => None
  end.
Proof.
  destruct i as [[| |] x]; try reflexivity.
  pose proof (to4_denotes {| ip_fam := F6; ip_val := x |}) as H. unfold netip_from_ip. cbn [ip_fam].
  destruct (to4 _), (denotes _); try contradiction.
  - subst. reflexivity.
  - destruct H as [_ ->]. reflexivity.
  - discriminate H.
Qed.

(** A rule hits an address (egress.go tests [netipFromIP] of it) iff the *denoted* address lies
    in the rule's block of the same family. *)
Lemma cidr_contains_denoted p i :
  match netip_from_ip i with Some a => prefix_contains p a | None => false end = true <->
  match px_fam p, denotes i with
  | F4, A4 v => spec_in_block 32 (px_bits p) (px_addr p) v
  | F6, A6 w => spec_in_block 128 (px_bits p) (px_addr p) w
  | _, _ => False
  end.
Proof.
  rewrite netip_from_ip_denotes.
  destruct (denotes i); rewrite ?prefix_contains_spec; cbn [ip_fam ip_val];
    destruct (px_fam p); cbn [fam_bits]; intuition congruence.
Qed.

(** config.parseEgressRule on a rule in IPv4-mapped notation ([compile_prefix], fix 4e2df4c) *)
Lemma compile_prefix_mapped px :
  px_fam px = F6 -> 96 <= px_bits px -> between mapped_lo mapped_hi (px_addr px) ->
  compile_prefix px =
  {| px_fam := F4; px_addr := px_addr px - mapped_lo; px_bits := px_bits px - 96 |}.
Proof.
  intros Hf Hb Hm. unfold compile_prefix, is4in6. rewrite Hf.
  apply mapped_block in Hm. apply N.leb_le in Hb.
  rewrite (mapped_low_bits _ Hm), Hb. apply N.eqb_eq in Hm. rewrite Hm. reflexivity.
Qed.

(** Why the rule has to be unmapped: netip keeps ::ffff:a.b.c.d as a 128-bit address while
    egress.go unmaps every address it tests, so the prefix *as parsed* (prefix length >= 96) would
    hit no address at all - neither the IPv4 address it embeds nor its own mapped spelling.
    An address it hit would share its first 96 bits with a mapped address, so be mapped itself,
    and then it denotes an IPv4 address, which a 128-bit rule never contains. *)
Lemma parsed_mapped_rule_hits_nothing p i :
  px_fam p = F6 -> 96 <= px_bits p -> between mapped_lo mapped_hi (px_addr p) ->
  match netip_from_ip i with Some a => prefix_contains p a | None => false end = false.
Proof.
  intros Hf Hb Hm. apply not_true_iff_false. rewrite cidr_contains_denoted, Hf.
  pose proof (to4_denotes i) as H.
  destruct (denotes i) as [v|w|]; try tauto. intros [_ Heq].
  destruct (to4 i) eqn:Et; [contradiction|]. destruct H as [Hfam ->].
  unfold to4 in Et. rewrite Hfam in Et.
  destruct (N.eqb_spec (ip_val i / c32) 65535) as [E|E]; [discriminate|].
  (* [lia] without the 128-bit bounds of [Hm] in its context *)
  apply E. apply (div_pow2_coarser _ _ _ 32) in Heq; [|clear - Hb; lia].
  change (2 ^ 32) with c32 in Heq. rewrite <- Heq. apply mapped_block, Hm.
Qed.

Lemma mapped_notation_rule_is_dead p i :
  px_fam p = F6 -> 96 <= px_bits p -> mapped_lo <= px_addr p <= mapped_hi -> wf_ip i ->
  match netip_from_ip i with Some a => prefix_contains p a | None => false end = false.
Proof. intros Hf Hb Hm _. exact (parsed_mapped_rule_hits_nothing p i Hf Hb Hm). Qed.
