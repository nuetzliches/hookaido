(** The C02 monitor is sound for the model: [c02_event], the predicate the correspondence check
    evaluates on traces of the Go stores, demands nothing the model does not deliver.  Proved clause
    by clause here, put together in Properties/C02.v.  The monitor recognises a message by id +
    immutable fields, hence the premise [fresh_enqueue]. *)
From Coq Require Import List ZArith NArith Bool Lia.
From HK Require Import Model.Queue Model.QueueMon Proofs.ListFacts Proofs.QueueBase Proofs.QueueInv
  Proofs.QueueInvStep Proofs.QueueStep Proofs.QueueMonSound.
Import ListNotations.
Open Scope Z_scope.

Lemma st_eqb_sym a b : st_eqb a b = st_eqb b a.
Proof. destruct a, b; reflexivity. Qed.

Lemma dead_count_eq l : dead_count l = Z.of_nat (length (filter (fun m => st_eqb (m_st m) Dead) l)).
Proof.
  unfold dead_count, count_st.
  rewrite (filter_ext (fun m => st_eqb Dead (m_st m)) (fun m => st_eqb (m_st m) Dead)); [reflexivity | intros; apply st_eqb_sym].
Qed.

Lemma dlq_victims_oldest depth hint l i :
  In i (dlq_depth_victims depth hint l) ->
  0 < depth /\ depth < dead_count l /\
  exists m, In m l /\ m_id m = i /\ m_st m = Dead /\
    forall d, In d l -> m_st d = Dead -> ~ In (m_id d) (dlq_depth_victims depth hint l) -> m_recv m <= m_recv d.
Proof.
  rewrite dead_count_eq. apply dlq_victims_spec.
Qed.

Lemma count_dead_apply_pm_le pm l :
  (forall m m', pm m = Some m' -> m' = m) -> dead_count (apply_pm pm l) <= dead_count l.
Proof.
  intros Hs. unfold dead_count, count_st. apply Nat2Z.inj_le.
  induction l as [|x tl IH]; cbn [apply_pm filter length]; [apply Nat.le_refl|].
  destruct (pm x) as [x'|] eqn:E.
  - apply Hs in E. subst x'. cbn [filter]. destruct (st_eqb Dead (m_st x)); cbn [length]; lia.
  - destruct (st_eqb Dead (m_st x)); cbn [length]; lia.
Qed.

(** what is known about a message that a prune removed although its age did not qualify it *)
Lemma prune_removed_facts c now hint s m :
  NoDup (ids (msgs s)) -> In m (msgs s) -> ~ In (m_id m) (ids (msgs (prune c now hint s))) ->
  prune_age_eligible c now m = false ->
  m_st m = Dead /\ 0 < c_prune_iv c /\ 0 < c_dlq_depth c /\ c_dlq_depth c < dead_count (msgs s) /\
  forall d, In d (msgs (prune c now hint s)) -> m_st d = Dead -> m_recv m <= m_recv d.
Proof.
  intros ND Hm Hgone Ea.
  assert (En : prune_pm c now hint s m = None).
  { rewrite <- (find_id_apply_pm_In _ (msgs s) m (imm_pres_id_pres _ (prune_pm_imm c now hint s)) ND Hm), <- prune_msgs_eq.
    apply find_id_None. exact Hgone. }
  destruct (prune_pm_none c now hint s m En) as [Ed [Ee | Hv]]; [congruence|].
  set (l1 := apply_pm (pm_prune_age c now) (msgs s)) in *.
  set (vs := dlq_depth_victims (c_dlq_depth c) hint l1) in *.
  destruct (dlq_victims_oldest _ _ _ _ Hv) as [Hd [Hcnt [m1 [Hm1 [Ei [Es Hold]]]]]].
  assert (m1 = m).
  { apply apply_pm_In in Hm1. destruct Hm1 as [m0 [H0 Ep]]. apply pm_prune_age_same in Ep. subst m1.
    apply (nodup_ids_inj (msgs s)); assumption. }
  subst m1. split; [exact Es|]. split; [exact (prune_enabled_iv _ _ _ Ed)|]. split; [exact Hd|]. split.
  - pose proof (count_dead_apply_pm_le (pm_prune_age c now) (msgs s) (pm_prune_age_same c now)). fold l1 in H. lia.
  - (* a dead message that is left is none of the victims *)
    unfold prune. rewrite Ed. cbn [msgs]. unfold prune_msgs. fold l1 vs. intros d Hdin Hds.
    apply apply_pm_In in Hdin. destruct Hdin as [d0 [Hd0 Ep]].
    unfold pm_remove_ids in Ep. destruct (memN (m_id d0) vs) eqn:Ev; [discriminate|]. inversion Ep; subst d0.
    apply Hold; [exact Hd0 | exact Hds | apply memN_false; exact Ev].
Qed.

(** a message that is dead afterwards was the same dead message before, and nothing is removed: what
    [step_prune_shape] needs of the phases that follow the prune *)
Definition nice (pm : msg -> option msg) : Prop :=
  forall m, exists m', pm m = Some m' /\ m_id m' = m_id m /\ (m_st m' = Dead -> m' = m).

Lemma nice_some : nice (fun m => Some m).
Proof. intros m. exists m. auto. Qed.

Lemma nice_comp f g : nice f -> nice g -> nice (pm_comp f g).
Proof.
  intros Hf Hg m. destruct (Hf m) as [m1 [E1 [I1 D1]]]. destruct (Hg m1) as [m2 [E2 [I2 D2]]].
  exists m2. unfold pm_comp. rewrite E1. split; [exact E2|]. split; [congruence|].
  intros Hd. pose proof (D2 Hd) as E. subst m2. apply D1 in Hd. exact Hd.
Qed.

Lemma nice_sweep now : nice (pm_sweep now).
Proof.
  intros m. unfold pm_sweep. destruct (expired now m).
  - exists (release now m). split; [reflexivity|]. split; [reflexivity|]. simpl. discriminate.
  - exists m. auto.
Qed.

Lemma nice_lease now ttl picked : nice (pm_lease now ttl picked).
Proof.
  intros m. unfold pm_lease. destruct (lease_of picked (m_id m)) as [lid|].
  - eexists. split; [reflexivity|]. split; [reflexivity|]. simpl. discriminate.
  - exists m. auto.
Qed.

Definition after_prune_shape (P l' : list msg) : Prop :=
  exists pm2 news, l' = apply_pm pm2 P ++ news
    /\ (forall m m', In m P -> pm2 m = Some m' -> m_id m' = m_id m /\ (m_st m' = Dead -> m' = m))
    /\ (forall m, In m P -> pm2 m = None -> m_st m = Queued)
    /\ (forall n, In n news -> m_st n = Queued).

Lemma nice_shape pm P : nice pm -> after_prune_shape P (apply_pm pm P).
Proof.
  intros Hn. exists pm, []. rewrite app_nil_r. split; [reflexivity|]. split.
  - intros m m' _ E. destruct (Hn m) as [m1 [E1 [I1 D1]]]. rewrite E in E1. inversion E1; subst. auto.
  - split; [|intros n []]. intros m _ E. destruct (Hn m) as [m1 [E1 _]]. congruence.
Qed.

Lemma same_shape P : after_prune_shape P P.
Proof. pose proof (nice_shape _ P nice_some) as H. rewrite apply_pm_id in H. exact H. Qed.

Definition mk_news (now : Z) (ies : list (N * enq)) : list msg := map (fun p => mk_msg now (fst p) (snd p)) ies.

Lemma mk_news_queued now ies n : In n (mk_news now ies) -> m_st n = Queued.
Proof. unfold mk_news. intros H. apply in_map_iff in H. destruct H as [p [E _]]. subst n. reflexivity. Qed.

Lemma ids_mk_news now ies : ids (mk_news now ies) = map fst ies.
Proof. unfold ids, mk_news. rewrite map_map. apply map_ext. reflexivity. Qed.

Lemma enqueue_shape fl c s x o s' r :
  enq_list x <> [] -> step fl c s x o = (s', r) ->
  let s1 := prune c (op_now x) (o_gone o) s in
  prunes x = true /\
  ((msgs s' = msgs s /\ r = RBadOracle)
   \/ (msgs s' = msgs s1 /\ exists e, r = RErr e)
   \/ (exists ies l2, assign_ids (enq_list x) (o_genids o) = Some ies
         /\ enq_room fl c (Z.of_nat (length ies)) (o_gone o) s1 = Some l2
         /\ msgs s' = l2 ++ mk_news (op_now x) ies /\ enq_ok x r = true)).
Proof.
  intros Hne H.
  assert (Hx : exists single, step_enqueue fl c (op_now x) single (enq_list x) o s = (s', r) /\ prunes x = true
                 /\ forall n, enq_ok x (if single then RUnit else RCount n 0 false) = true).
  { destruct x; try contradiction.
    - exists true. repeat split. exact H.
    - exists false. destruct es; [contradiction | repeat split; exact H]. }
  destruct Hx as [single [Hs [Hp Hok]]]. split; [exact Hp|].
  destruct (step_enqueue_cases _ _ _ _ _ _ _ _ _ Hs) as [E | _ _ | e _ | ies l2 _ EA Room _ _]; [contradiction | auto | eauto |].
  right. right. exists ies, l2. auto.
Qed.

Lemma evict_shape P vs news :
  NoDup (ids P) -> queued_ids P vs -> (forall n, In n news -> m_st n = Queued) ->
  after_prune_shape P (apply_pm (pm_remove_ids vs) P ++ news).
Proof.
  intros ND Q Hn. exists (pm_remove_ids vs), news. split; [reflexivity|]. split.
  - intros m m' _ E. unfold pm_remove_ids in E. destruct (memN (m_id m) vs); inversion E; subst. auto.
  - split; [|exact Hn]. intros m Hm E. unfold pm_remove_ids in E. destruct (memN (m_id m) vs) eqn:Ev; [|discriminate].
    apply memN_In in Ev. destruct (Q _ Ev) as [m1 [H1 [Ei Eq]]].
    assert (m1 = m) by (apply (nodup_ids_inj P); auto). subst m1. apply st_eqb_eq. exact Eq.
Qed.

Theorem step_prune_shape fl c s x o s' r :
  Inv s -> prunes x = true -> step fl c s x o = (s', r) ->
  msgs s' = msgs s \/ after_prune_shape (msgs (prune c (op_now x) (o_gone o) s)) (msgs s').
Proof.
  intros I Hp H. destruct (enq_list x) as [|e0 es0] eqn:El.
  - right. destruct x; try discriminate Hp; cbn [step op_now] in *.
    + discriminate El.
    + cbn [enq_list] in El. subst es. discriminate Hp.
    + rewrite step_dequeue_eq in H. cbv zeta in H.
      assert (Hpre : exists pm, nice pm /\ msgs (deq_pre fl c now o s) = apply_pm pm (msgs (prune c now (o_gone o) s))).
      { unfold deq_pre. destruct fl.
        - exists (pm_sweep now). split; [apply nice_sweep | reflexivity].
        - destruct (sql_sweep_due now _).
          + exists (pm_sweep now). split; [apply nice_sweep | reflexivity].
          + exists (fun m => Some m). split; [apply nice_some | symmetry; apply apply_pm_id]. }
      destruct Hpre as [pm [Hn E]].
      destruct (valid_pick _ _ _ _ _ _ _); inversion H; subst s' r; cbn [msgs]; rewrite E.
      * rewrite apply_pm_comp. apply nice_shape, nice_comp; [exact Hn | apply nice_lease].
      * apply nice_shape, Hn.
    + unfold step_list in H. destruct ord; inversion H; subst; apply same_shape.
    + unfold step_list_dead in H. inversion H; subst. apply same_shape.
    + unfold step_stats in H. inversion H; subst. apply same_shape.
  - assert (Hne : enq_list x <> []) by (rewrite El; discriminate).
    destruct (enqueue_shape fl c s x o s' r Hne H) as [_ [[E _] | [[E _] | [ies [l2 [_ [Er [E _]]]]]]]].
    + left. exact E.
    + right. rewrite E. apply same_shape.
    + right. destruct (enq_room_spec _ _ _ _ _ _ Er) as [vs [El2 [Q _]]]. rewrite E, El2.
      apply evict_shape; [apply (inv_prune c (op_now x) (o_gone o) s I) | exact Q | apply mk_news_queued].
Qed.

Lemma optN_eqb_false a l : a <> Some l -> optN_eqb a (Some l) = false.
Proof.
  intros H. destruct a as [x|]; simpl; [|reflexivity].
  destruct (N.eqb x l) eqn:E; [|reflexivity]. apply N.eqb_eq in E. subst. contradiction.
Qed.

Lemma item_pairs_ids i l r : In (i, l) (item_pairs r) -> memN i (item_ids r) = true.
Proof.
  unfold item_pairs, item_ids. intros H. apply memN_In. apply in_map_iff in H. destruct H as [it [E H]].
  apply in_map_iff. exists it. split; [inversion E; reflexivity | exact H].
Qed.

Lemma manage_of_kind x k : manage_kind_of x = Some k -> manage_of x = Some (k, false).
Proof.
  destruct x; simpl; try discriminate.
  - intros H; inversion H; reflexivity.
  - destruct (f_preview f); [discriminate|]. intros H; inversion H; reflexivity.
Qed.

Lemma enq_success_ok x o r b a : enq_success (mkEvent x o r b a) = enq_ok x r.
Proof. reflexivity. Qed.

Lemma settles_intro x o r b a k (want : lease_kind -> bool) lid m :
  lease_op_kind x = Some k -> want k = true -> In lid (presented x) -> m_lease m = Some lid ->
  is_leased m = true -> op_now x < m_until m -> res_ok r = true ->
  settles (mkEvent x o r b a) want m = true.
Proof.
  intros Hk Hw Hin Hl Hle Hu Hok. unfold settles. cbn [ev_op ev_res]. rewrite Hk, Hw.
  unfold presents. rewrite Hl. apply memN_In in Hin. rewrite Hin, Hle.
  apply Z.ltb_lt in Hu. rewrite Hu. simpl. destruct x; try reflexivity. exact Hok.
Qed.

Lemma change_ok_of_change c x o r b a m m' :
  change c x r m m' -> change_ok c (mkEvent x o r b a) m m' = true.
Proof.
  intros H. unfold change_ok. cbn [ev_op ev_res].
  destruct (msg_eqb m m') eqn:Eq; [reflexivity|].
  destruct H as [E | Hrel Hexp Hor E | route target bt ttl lid m0 Ex H0 Hrd Hin Hfresh E
                 | k lid Hk Hpr Hl Hle Hu Hok Hnn E | k Hk Hal Hok E].
  - subst m'. rewrite msg_eqb_refl in Eq. discriminate.
  - subst m'. pose proof Hexp as Hexp'. unfold expired in Hexp'. apply andb_true_iff in Hexp'. destruct Hexp' as [Hl _].
    rewrite (is_leased_st m Hl). cbn [release upd m_st m_attempt]. rewrite Z.eqb_refl, Hexp.
    destruct Hor as [Hd | Hp]; rewrite ?Hd, ?Hp; simpl; rewrite ?orb_true_r; reflexivity.
  - subst m'. assert (Hdq : is_dequeue x = true) by (rewrite Ex; reflexivity).
    pose proof (item_pairs_ids _ _ _ Hin) as Hmem.
    destruct H0 as [H0 | [Hexp H0]]; subst m0.
    + unfold ready in Hrd. rewrite !andb_true_iff in Hrd. destruct Hrd as [[[Hq _] _] _].
      unfold queuedb in Hq. apply st_eqb_eq in Hq. rewrite Hq.
      cbn [leased_version upd m_st m_attempt]. rewrite Hdq, Hmem, Z.eqb_refl. reflexivity.
    + pose proof Hexp as Hexp'. unfold expired in Hexp'. apply andb_true_iff in Hexp'. destruct Hexp' as [Hl _].
      rewrite (is_leased_st m Hl). cbn [leased_version release upd m_st m_attempt m_lease].
      rewrite Hdq, Hexp, Hmem, (optN_eqb_false _ _ Hfresh), Z.eqb_refl. simpl. apply orb_true_r.
  - rewrite (is_leased_st m Hle).
    assert (Hs : forall want, want k = true -> settles (mkEvent x o r b a) want m = true).
    { intros want Hw. apply (settles_intro x o r b a k want lid); assumption. }
    destruct k as [|d|by_|rs]; cbn [lease_effect] in E.
    + destruct (0 <? c_deliv_age c); [|discriminate]. inversion E; subst m'. cbn [upd m_st m_attempt].
      rewrite Z.eqb_refl. exact (Hs is_ack eq_refl).
    + inversion E; subst m'. cbn [upd m_st m_attempt]. rewrite Z.eqb_refl, (Hs is_nack eq_refl). apply orb_true_r.
    + inversion E; subst m'. cbn [upd m_st m_attempt m_lease]. rewrite Z.eqb_refl, optN_eqb_refl, (Hs is_extend eq_refl). reflexivity.
    + inversion E; subst m'. cbn [upd m_st m_attempt]. rewrite Z.eqb_refl. exact (Hs is_dead eq_refl).
  - rewrite (manage_of_kind x k Hk).
    destruct k; cbn [manage_effect] in E; try discriminate; inversion E; subst m';
      destruct (m_st m) eqn:Es; simpl in Hal; try discriminate;
      cbn [upd m_st m_attempt]; rewrite ?Es, Z.eqb_refl; reflexivity.
Qed.

Lemma removal_ok_of_removal c x o r b a m :
  removal c x r m ->
  (prunes x = true -> prune_reason c (op_now x) m -> prune_eligible c (mkEvent x o r b a) m = true) ->
  removal_ok c (mkEvent x o r b a) m = true.
Proof.
  intros H Hprune. unfold removal_ok.
  destruct H as [lid Hk Hpr Hl Hle Hu Hok Hd | [now [idl [Ex Hin]]] Hs Hok | Hp Hr | He Hdo Hmax Hq].
  - rewrite (settles_intro x o r b a KAck is_ack lid); auto.
  - subst x. cbn [ev_op]. rewrite Hs. apply memN_In in Hin. rewrite Hin. destruct (settles _ _ _); reflexivity.
  - rewrite (Hprune Hp Hr). rewrite !orb_true_r. reflexivity.
  - unfold evict_ok. rewrite enq_success_ok, He, Hdo, Hq. apply Z.ltb_lt in Hmax. rewrite Hmax. simpl. apply orb_true_r.
Qed.

(** the one history the monitor cannot judge: a successful enqueue that re-uses the id of a message
    stored when the operation started (the memory store allows it when that message is evicted by the
    same operation; a prune of the same operation may also have removed it) *)
Definition fresh_enqueue (e : event) : Prop :=
  res_ok (ev_res e) = true -> forall p, In p (enq_assigned e) -> ~ In (fst p) (ids (ev_before e)).

Lemma step_view fl c s x o s' r :
  Inv s -> step fl c s x o = (s', r) -> fresh_enqueue (mkEvent x o r (msgs s) (msgs s')) ->
  exists pm news, view (mkEvent x o r (msgs s) (msgs s')) pm news /\ per_message c x r (msgs s) pm /\ news_ok x o r news.
Proof.
  intros I H Hfresh. destruct (step_sound fl c s x o s' r I H) as [pm [news [E [P N]]]].
  exists pm, news. split; [|split; assumption]. split; cbn [ev_before ev_after].
  - apply I.
  - intros m m' Hm Ep. specialize (P m Hm). rewrite Ep in P. apply (change_same_imm _ _ _ _ _ P).
  - exact E.
  - intros n Hn. destruct N as [N | [Hok [ies [EA En]]]]; [subst news; destruct Hn|].
    subst news. apply in_map_iff in Hn. destruct Hn as [p [En Hp]]. subst n. cbn [mk_msg m_id].
    apply Hfresh; [apply (enq_ok_res_ok x); exact Hok|]. unfold enq_assigned. cbn [ev_op ev_orc]. rewrite EA. exact Hp.
Qed.

Lemma find_fst_NoDup (ies : list (N * enq)) p :
  NoDup (map fst ies) -> In p ies -> find (fun q : N * enq => N.eqb (fst q) (fst p)) ies = Some p.
Proof.
  induction ies as [|q tl IH]; intros ND Hin; [destruct Hin|].
  simpl in ND. inversion ND as [|? ? Hnot ND1]; subst. simpl.
  destruct Hin as [Hq | Hin].
  - subst q. rewrite N.eqb_refl. reflexivity.
  - destruct (N.eqb (fst q) (fst p)) eqn:E.
    + apply N.eqb_eq in E. exfalso. apply Hnot. rewrite E. apply in_map. exact Hin.
    + apply IH; assumption.
Qed.

Lemma insert_ok_new x o r b a ies p :
  enq_ok x r = true -> assign_ids (enq_list x) (o_genids o) = Some ies -> NoDup (map fst ies) -> In p ies ->
  insert_ok (mkEvent x o r b a) (mk_msg (op_now x) (fst p) (snd p)) = true.
Proof.
  intros He EA ND Hp. unfold insert_ok. rewrite enq_success_ok, He. cbn [andb].
  unfold enq_assigned. cbn [ev_op ev_orc]. rewrite EA. cbn [mk_msg m_id].
  rewrite (find_fst_NoDup ies p ND Hp). apply msg_eqb_refl.
Qed.

(** exactly the new messages are recognised as inserted: a stored message keeps its id, which none
    of the new ones has *)
Lemma insert_ok_news x o r B A pm ies :
  view (mkEvent x o r B A) pm (mk_news (op_now x) ies) ->
  enq_ok x r = true -> assign_ids (enq_list x) (o_genids o) = Some ies -> NoDup (map fst ies) ->
  filter (insert_ok (mkEvent x o r B A)) A = mk_news (op_now x) ies.
Proof.
  intros V Hok EA ND. pose proof (view_after _ _ _ V) as E. cbn [ev_after ev_before] in E.
  rewrite E, filter_app, filter_none, filter_all; [reflexivity | |].
  - intros y Hy. apply in_map_iff in Hy. destruct Hy as [p [<- Hp]]. apply (insert_ok_new x o r B _ ies p); assumption.
  - intros y Hy. apply apply_pm_In in Hy. destruct Hy as [m [Hm Ep]].
    unfold insert_ok. rewrite enq_success_ok, Hok. cbn [andb]. unfold enq_assigned. cbn [ev_op ev_orc]. rewrite EA.
    destruct (find (fun p : N * enq => N.eqb (fst p) (m_id y)) ies) as [p|] eqn:Ef; [|reflexivity].
    exfalso. apply find_some in Ef. destruct Ef as [Hp Eid]. apply N.eqb_eq in Eid.
    apply (view_fresh _ _ _ V (mk_msg (op_now x) (fst p) (snd p))); [apply in_map_iff; exists p; auto|].
    destruct (view_imm _ _ _ V m y Hm Ep) as [Ei _]. cbn [mk_msg m_id ev_before]. rewrite Eid, <- Ei. apply in_map. exact Hm.
Qed.

Lemma news_ids_NoDup l now ies : NoDup (ids (l ++ mk_news now ies)) -> NoDup (map fst ies).
Proof. unfold ids. rewrite map_app. intros ND. apply NoDup_app_r in ND. fold (ids (mk_news now ies)) in ND. rewrite ids_mk_news in ND. exact ND. Qed.

(** a message gone after a pruning step for a retention reason is eligible in the monitor's sense: if
    not by age, it was an oldest dead message over the DLQ depth, and the dead messages stored afterwards
    are ones the prune left ([step_prune_shape]) *)
Lemma prune_eligible_holds fl c s x o s' r m :
  Inv s -> step fl c s x o = (s', r) -> In m (msgs s) -> ~ In (m_id m) (ids (msgs s')) ->
  prunes x = true -> prune_reason c (op_now x) m ->
  prune_eligible c (mkEvent x o r (msgs s) (msgs s')) m = true.
Proof.
  intros I H Hm Hno Hp [Hnl [Hiv Hcase]].
  unfold prune_eligible. cbn [ev_op ev_before ev_after]. rewrite Hp, (proj2 (Z.ltb_lt _ _) Hiv). cbn [andb].
  destruct (prune_age_eligible c (op_now x) m) eqn:Ea; [reflexivity|]. cbn [orb].
  destruct Hcase as [Hc | [Hdead _]]; [discriminate|].
  pose proof (inv_nodup _ _ I) as ND.
  destruct (step_prune_shape fl c s x o s' r I Hp H) as [Esame | [pm2 [news [E [Himg [Hnone Hnews]]]]]].
  { exfalso. apply Hno. rewrite Esame. apply in_map. exact Hm. }
  set (P := msgs (prune c (op_now x) (o_gone o) s)) in *.
  assert (HnoP : ~ In (m_id m) (ids P)).
  { intros Hin. apply in_map_iff in Hin. destruct Hin as [m1 [Ei H1]].
    assert (m1 = m) by (apply (nodup_ids_inj (msgs s)); auto; apply (prune_sub c (op_now x) (o_gone o)); exact H1). subst m1.
    destruct (pm2 m) as [m2|] eqn:E2.
    - apply Hno. rewrite E. unfold ids. rewrite map_app. apply in_or_app. left.
      destruct (Himg m m2 H1 E2) as [Eid _]. rewrite <- Eid. apply in_map. apply apply_pm_In. exists m. auto.
    - rewrite (Hnone m H1 E2) in Hdead. discriminate. }
  destruct (prune_removed_facts c (op_now x) (o_gone o) s m ND Hm HnoP Ea) as [Hd [_ [Hdepth [Hcnt Hold]]]].
  rewrite Hd, (proj2 (Z.ltb_lt _ _) Hdepth), (proj2 (Z.ltb_lt _ _) Hcnt). cbn [st_eqb andb].
  apply forallb_forall. intros d Hdin. rewrite E in Hdin. apply in_app_or in Hdin.
  destruct (st_eqb (m_st d) Dead) eqn:Esd; [|reflexivity]. cbn [negb orb]. apply st_eqb_eq in Esd.
  destruct Hdin as [Hdin | Hdin].
  - apply apply_pm_In in Hdin. destruct Hdin as [d0 [Hd0 Ed]].
    destruct (Himg d0 d Hd0 Ed) as [_ Hsame]. specialize (Hsame Esd). subst d0.
    apply Z.leb_le. apply Hold; assumption.
  - rewrite (Hnews d Hdin) in Esd. discriminate.
Qed.

Section Clauses.
  Variables (fl : flavour) (c : cfg) (s : state) (x : op) (o : oracle) (s' : state) (r : res).
  Let e := mkEvent x o r (msgs s) (msgs s').
  Hypothesis I : Inv s.
  Hypothesis H : step fl c s x o = (s', r).

  Lemma c02_fates pm news :
    view e pm news -> per_message c x r (msgs s) pm ->
    forallb (fun m => match survivor e m with Some m' => change_ok c e m m' | None => removal_ok c e m end) (msgs s) = true.
  Proof.
    intros V P. apply forallb_forall. intros m Hm. rewrite (view_survivor e pm news V m Hm).
    specialize (P m Hm). destruct (pm m) as [m'|] eqn:Ep.
    - apply change_ok_of_change. exact P.
    - apply removal_ok_of_removal; [exact P|]. intros Hp Hr.
      apply (prune_eligible_holds fl c s x o s' r m I H Hm (view_gone e pm news V m Hm Ep) Hp Hr).
  Qed.

  Lemma c02_inserted pm news : view e pm news -> news_ok x o r news -> forallb (insert_ok e) (inserted e) = true.
  Proof.
    intros V N. rewrite (view_inserted e pm news V).
    destruct N as [N | [Hok [ies [EA En]]]]; [subst news; reflexivity|].
    pose proof (inv_nodup _ _ (step_inv_eq fl c s x o s' r I H)) as ND'.
    pose proof (view_after e pm news V) as E. cbn [e ev_before ev_after] in E. rewrite E, En in ND'. apply news_ids_NoDup in ND'.
    subst news. apply forallb_forall. intros n Hn. apply in_map_iff in Hn. destruct Hn as [p [En Hp]]. subst n.
    apply (insert_ok_new x o r (msgs s) (msgs s') ies p); assumption.
  Qed.

  Lemma enq_ok_inserted : enq_ok x r = true -> exists n, In n (msgs s') /\ insert_ok e n = true.
  Proof.
    intros He.
    assert (Hne : enq_list x <> []) by (destruct x; try discriminate He; [discriminate | destruct es; discriminate]).
    destruct (enqueue_shape fl c s x o s' r Hne H) as [_ [[_ Er] | [[_ [err Er]] | [ies [l2 [EA [_ [E _]]]]]]]].
    - subst r. destruct x; try discriminate; destruct es; discriminate.
    - subst r. destruct x; try discriminate; destruct es; discriminate.
    - pose proof (inv_nodup _ _ (step_inv_eq fl c s x o s' r I H)) as ND'. rewrite E in ND'. apply news_ids_NoDup in ND'.
      destruct ies as [|p tl]; [apply assign_ids_length in EA; destruct (enq_list x); [contradiction | discriminate]|].
      exists (mk_msg (op_now x) (fst p) (snd p)). split.
      + rewrite E. apply in_or_app. right. left. reflexivity.
      + apply (insert_ok_new x o r (msgs s) (msgs s') (p :: tl) p); auto. left. reflexivity.
  Qed.
End Clauses.

(** evictions only in favour of stored messages: a message counted as evicted has no other reason in
    [removal_ok], so [evict_ok] holds for it and the enqueue succeeded *)
Lemma c02_evictions c e :
  forallb (fun m => match survivor e m with Some m' => change_ok c e m m' | None => removal_ok c e m end) (ev_before e) = true ->
  (enq_success e = true -> exists n, In n (ev_after e) /\ insert_ok e n = true) ->
  Nat.eqb (length (evicted c e)) 0 || negb (Nat.eqb (length (filter (insert_ok e) (ev_after e))) 0) = true.
Proof.
  intros Hfates Hins. destruct (evicted c e) as [|v tl] eqn:Ev; [reflexivity|]. cbn [length Nat.eqb orb].
  assert (Hv : In v (evicted c e)) by (rewrite Ev; left; reflexivity).
  apply filter_In in Hv. destruct Hv as [Hv Hc]. apply filter_In in Hv. destruct Hv as [Hvb Hsv].
  destruct (andb_prop _ _ Hc) as [Hc' Hnd]. destruct (andb_prop _ _ Hc') as [Hns Hnp]. apply negb_true_iff in Hns, Hnp.
  rewrite forallb_forall in Hfates. specialize (Hfates v Hvb). destruct (survivor e v); [discriminate Hsv|].
  assert (Hdel : match ev_op e with
                 | Manage _ MDeleteDead idl => st_eqb (m_st v) Dead && memN (m_id v) (norm_ids idl [])
                 | _ => false
                 end = false).
  { destruct (ev_op e) as [| | | | |? k ?| | | | | |]; try reflexivity. destruct k; try reflexivity. discriminate Hnd. }
  unfold removal_ok, evict_ok in Hfates. rewrite Hns, Hnp, Hdel in Hfates. cbn [orb] in Hfates.
  assert (He : enq_success e = true) by (destruct (enq_success e); [reflexivity | discriminate Hfates]).
  destruct (Hins He) as [n [Hn Hok]].
  destruct (filter (insert_ok e) (ev_after e)) as [|y ys] eqn:Ef; [|reflexivity].
  exfalso. assert (Hnf : In n (filter (insert_ok e) (ev_after e))) by (apply filter_In; split; assumption).
  rewrite Ef in Hnf. destruct Hnf.
Qed.

Definition fresh_enqueueb (e : event) : bool :=
  negb (res_ok (ev_res e)) || forallb (fun p : N * enq => negb (memN (fst p) (ids (ev_before e)))) (enq_assigned e).

Lemma fresh_enqueueb_spec e : fresh_enqueueb e = true -> fresh_enqueue e.
Proof.
  unfold fresh_enqueueb, fresh_enqueue. intros H Hok p Hp. rewrite Hok in H. simpl in H.
  rewrite forallb_forall in H. specialize (H p Hp). apply negb_true_iff in H. apply memN_false. exact H.
Qed.
