(** C04 at the pull layer - the idempotent duplicate answer (recentLeaseOps) and the HTTP / gRPC status mapping
    (internal/pullapi/ops.go, http.go, internal/workerapi/server.go; model: Model/PullOps.v).
    The theorems are stated here, each derived from the call specifications and the history lemmas of
    Proofs/PullOpsProofs.v.

    Reading guide.  [pull_trace fl c pc xs] is the list of events of the history [xs] of calls (pull calls
    interleaved with store calls of other parties and clock steps) from the empty server; an event carries the
    call, the response, the states before and after, and two ghost lists: [g_stored] = the (lease id, op) pairs the
    store accepted in this call (exactly the arguments of rememberCompletedLease), [g_cached] = the pairs answered
    from the recent-ops cache without a store call.  [current now l ms] is the message whose current, unexpired
    lease is [l].  [po_now] is the store clock, [po_cnow] the pull server's clock. *)
From Coq Require Import List ZArith NArith Bool.
From HK Require Import Gen.Consts Model.Queue Model.QueueMon Model.PullOps Proofs.QueueInv Proofs.QueueInvStep
  Proofs.QueueStep Proofs.QueueLease Proofs.PullOpsProofs.
Import ListNotations.
Open Scope Z_scope.

(** (a) If a single ack / nack (incl. dead-letter) is answered 204 although the presented lease is not the current
    unexpired lease of any message at that moment, then the call left the queue state exactly as it was (it made no
    store call at all: not even an expired lease is released), it was answered from the cache, and an EARLIER call of
    the history with the same (lease id, op) was accepted by the store - on the lease that was current then - less
    than RecentLeaseOpTTL before on the server clock. *)
Theorem C04pull_idempotent_answer_sound : forall fl c pc xs pre e post k l o,
  pull_trace fl c pc xs = pre ++ e :: post ->
  call_single pc (po_call (pe_op e)) = Some (k, l) -> kind_opk k = Some o ->
  r_status (pe_resp e) = 204 ->
  current (po_now (pe_op e)) l (msgs (p_q (pe_before e))) = None ->
  p_q (pe_after e) = p_q (pe_before e)
  /\ g_cached (pe_ghost e) = [(l, o)] /\ g_stored (pe_ghost e) = []
  /\ exists e0, In e0 pre /\ In (l, o) (g_stored (pe_ghost e0))
                /\ po_cnow (pe_op e) < po_cnow (pe_op e0) + p_recent_ttl pc
                /\ current (po_now (pe_op e0)) l (msgs (p_q (pe_before e0))) <> None.
Proof. exact idempotent_answer_sound. Qed.

(** the same for every id a call (single or batch) answers from the cache *)
Theorem C04pull_cached_answer_has_twin : forall fl c pc xs pre e post p,
  pull_trace fl c pc xs = pre ++ e :: post -> In p (g_cached (pe_ghost e)) ->
  0 < p_recent_ttl pc /\ 0 < p_recent_cap pc
  /\ exists e0, In e0 pre /\ In p (g_stored (pe_ghost e0))
                /\ po_cnow (pe_op e) < po_cnow (pe_op e0) + p_recent_ttl pc
                /\ current (po_now (pe_op e0)) (fst p) (msgs (p_q (pe_before e0))) <> None.
Proof. exact cached_answer_has_twin. Qed.

(** what is remembered was a real success: the store accepted the operation on the then current, unexpired lease *)
Theorem C04pull_stored_was_current : forall fl c pc xs e p,
  In e (pull_trace fl c pc xs) -> In p (g_stored (pe_ghost e)) ->
  current (po_now (pe_op e)) (fst p) (msgs (p_q (pe_before e))) <> None.
Proof. exact stored_was_current. Qed.

(** (b) status mapping of a single ack / nack / dead-letter / positive extend while the store works:
    success (204 / OK) iff the cache holds an unexpired entry for this (lease id, op) or the lease is current;
    conflict (409 / FailedPrecondition) iff neither; nothing else is answered. *)
Theorem C04pull_status_mapping : forall fl c pc ps x k l ps' r g,
  Inv (p_q ps) -> call_single pc (po_call x) = Some (k, l) -> is_noop_extend k = false -> p_down ps = false ->
  pstep fl c pc ps x = (ps', r, g) ->
  let hit := single_hit pc (po_cnow x) k l (p_cache ps) in
  let cur := current (po_now x) l (msgs (p_q ps)) in
  (r_status r = 204 \/ r_status r = 409)
  /\ (r_status r = 204 <-> hit = true \/ cur <> None)
  /\ (r_status r = 409 <-> hit = false /\ cur = None)
  /\ (r_status r = 204 <-> grpc_code r = GOk)
  /\ (r_status r = 409 <-> grpc_code r = GFailedPrecondition)
  /\ (hit = true -> g_cached g = single_keys k l /\ g_stored g = [] /\ p_q ps' = p_q ps)
  /\ (hit = false -> g_cached g = [] /\ (g_stored g = single_keys k l <-> cur <> None \/ single_keys k l = [])).
Proof.
  intros fl c pc ps x k l ps' r g I Ec Hn Dn Es. cbv zeta. rewrite (pstep_single fl c pc ps x k l Ec) in Es.
  destruct (pull_single_spec fl c pc _ _ k l ps ps' r g I Hn Es) as [[Hit E] | [[_ [Dn' _]] | [Hit [_ [pm E]]]]].
  (* in each case the answer, the ghost lists and the queue are known, and the seven claims are closed formulas *)
  - rewrite Hit. injection E as -> -> ->. cbn. intuition congruence.
  - congruence.
  - rewrite Hit. cbv zeta in E. destruct (current (po_now x) l (msgs (p_q ps))) as [m|]; destruct E as [E _]; injection E as -> -> ->; cbn.
    + intuition congruence.
    + intuition congruence.
Qed.

(** a hit is exactly: cache switched on and an unexpired entry for this very (lease id, op) *)
Theorem C04pull_hit_iff_entry : forall pc cnow l k ch,
  NoDup (ckeys ch) ->
  (snd (cache_lookup pc cnow l k ch) = true <->
   cache_off pc = false /\ exists e, In e ch /\ ckey e = (l, k) /\ cnow < ce_exp e).
Proof.
  intros pc cnow l k ch ND. split; [apply cache_lookup_hit | apply cache_lookup_finds; exact ND].
Qed.

(** a positive extend is never answered idempotently: it neither reads nor writes the cache *)
Theorem C04pull_positive_extend_never_idempotent : forall fl c pc ps x l b ps' r g,
  Inv (p_q ps) -> call_single pc (po_call x) = Some (KExtend b, l) -> 0 < b -> p_down ps = false ->
  pstep fl c pc ps x = (ps', r, g) ->
  (r_status r = 204 <-> current (po_now x) l (msgs (p_q ps)) <> None)
  /\ (r_status r = 409 <-> current (po_now x) l (msgs (p_q ps)) = None)
  /\ g = g0 /\ p_cache ps' = p_cache ps.
Proof.
  intros fl c pc ps x l b ps' r g I Ec Hb Dn Es. rewrite (pstep_single fl c pc ps x _ l Ec) in Es.
  assert (Hn : is_noop_extend (KExtend b) = false) by (apply Z.leb_gt; exact Hb).
  (* an extend has no cache key: no look-up, nothing to remember *)
  destruct (pull_single_spec fl c pc _ _ _ l ps ps' r g I Hn Es) as [[Hit _] | [[_ [Dn' _]] | [_ [_ [pm E]]]]];
    [discriminate Hit | congruence |]. cbv zeta in E.
  destruct (current (po_now x) l (msgs (p_q ps))) as [m|]; destruct E as [E _]; injection E as -> -> ->; cbn;
    intuition congruence.
Qed.

(** the documented no-op (extend by a non-positive duration): success without touching anything *)
Theorem C04pull_nonpositive_extend_noop : forall fl c pc cnow now by_ l ps,
  by_ <= 0 ->
  pull_single fl c pc cnow now (KExtend by_) l ps =
  if p_down ps then (ps, mkResp 500 (BErr CInternal), g0) else (ps, mkResp 204 BNone, g0).
Proof. exact pull_single_noop_extend. Qed.

(** (c) C04_single_op_fenced lifted to the pull layer: a single call whose lease is not current changes no message,
    except that a message still leased under that id whose lease has expired goes back to the queue (and then the
    answer is 409); nothing is remembered; 204 is possible only as the cached answer, which changes nothing. *)
Theorem C04pull_stale_call_no_effect : forall fl c pc ps x k l ps' r g,
  Inv (p_q ps) -> call_single pc (po_call x) = Some (k, l) -> is_noop_extend k = false ->
  pstep fl c pc ps x = (ps', r, g) ->
  current (po_now x) l (msgs (p_q ps)) = None ->
  g_stored g = []
  /\ (exists pm, p_q ps' = set_msgs (p_q ps) (apply_pm pm (msgs (p_q ps)))
        /\ forall y, In y (msgs (p_q ps)) ->
             pm y = Some y
             \/ (m_lease y = Some l /\ expired (po_now x) y = true /\ pm y = Some (release (po_now x) y) /\ r_status r = 409))
  /\ (r_status r = 204 -> p_q ps' = p_q ps /\ single_hit pc (po_cnow x) k l (p_cache ps) = true /\ g_cached g = single_keys k l)
  /\ (r_status r = 204 \/ r_status r = 409 \/ (r_status r = 500 /\ p_down ps = true /\ p_q ps' = p_q ps)).
Proof.
  intros fl c pc ps x k l ps' r g I Ec Hn Es Hcur. rewrite (pstep_single fl c pc ps x k l Ec) in Es.
  destruct (pull_single_spec fl c pc _ _ k l ps ps' r g I Hn Es) as [[Hit E] | [[_ [Dn E]] | [_ [_ [pm E]]]]]; cbv zeta in E.
  - injection E as -> -> ->. simpl. split; [reflexivity|]. split; [|auto].
    exists (fun m => Some m). split; [symmetry; apply set_msgs_same | intros y _; left; reflexivity].
  - injection E as -> -> ->. simpl. split; [reflexivity|]. split; [|split; [discriminate | auto]].
    exists (fun m => Some m). split; [symmetry; apply set_msgs_same | intros y _; left; reflexivity].
  - rewrite Hcur in E. destruct E as [E Hy]. injection E as -> -> ->. simpl. split; [reflexivity|].
    split; [|split; [discriminate | auto]].
    exists pm. split; [reflexivity|]. intros y Hin. destruct (Hy y Hin) as [A | [A [B D]]]; auto.
Qed.

(** batch calls: the ids split into those answered from the cache (no effect) and those handed to the store; every
    message is unchanged, or released because its expired lease was handed to the store, or settled because its
    current lease was; a current lease handed to the store always takes effect and is remembered; what is
    remembered was current. *)
Theorem C04pull_batch_call_fenced : forall fl c pc ps x k o ls ps' r g,
  Inv (p_q ps) -> call_batch pc (po_call x) = Some (k, o, ls) -> pstep fl c pc ps x = (ps', r, g) ->
  exists pending completed,
    g_cached g = map (fun l => (l, o)) completed
    /\ incl pending ls /\ (forall l, In l ls -> In l pending \/ In l completed) /\ (forall l, In l pending -> ~ In l completed)
    /\ (forall p, In p (g_stored g) -> snd p = o /\ In (fst p) pending /\ current (po_now x) (fst p) (msgs (p_q ps)) <> None)
    /\ exists pm, p_q ps' = set_msgs (p_q ps) (apply_pm pm (msgs (p_q ps)))
         /\ (forall m, In m (msgs (p_q ps)) -> lchange c (po_now x) (batch_eff_kind k) pending m (pm m))
         /\ (p_down ps = false ->
             forall m y, In m (msgs (p_q ps)) -> m_lease m = Some y -> In y pending -> is_leased m = true -> po_now x < m_until m ->
                         pm m = lease_effect c (po_now x) (batch_eff_kind k) m /\ In (y, o) (g_stored g)).
Proof.
  intros fl c pc ps x k o ls ps' r g I Ec Es.
  destruct (pstep_batch fl c pc ps x k o ls Ec) as [Ep [Hk [_ [ND _]]]]. rewrite Ep in Es.
  destruct (pull_batch_spec fl c pc _ _ k o ls ps ps' r g I Hk ND Es)
    as [chmid [pending [completed [_ [_ [L1 [L2 [L3 [_ [Eg F]]]]]]]]]].
  exists pending, completed. split; [exact Eg|]. split; [exact L1|]. split; [exact L2|]. split; [exact L3 | exact F].
Qed.

(** batch answer: 200 without conflicts, 409 with conflicts; the gRPC twin always answers OK and carries the conflicts *)
Theorem C04pull_batch_status : forall fl c pc cnow now k o ls ps,
  p_down ps = false ->
  let r := snd (fst (pull_batch_call fl c pc cnow now k o ls ps)) in
  (exists n cs, r_body r = BBatch n (conflict_pairs cs) /\ (r_status r = 200 <-> cs = []) /\ (r_status r = 409 <-> cs <> []))
  /\ grpc_code r = GOk.
Proof.
  intros fl c pc cnow now k o ls ps Dn. unfold pull_batch_call.
  destruct (partition_recent pc cnow o ls (p_cache ps)) as [[ch1 pending] completed].
  destruct pending as [|p0 ptl].
  { simpl. split; [|reflexivity]. eexists. exists []. split; [reflexivity|]. intuition congruence. }
  rewrite Dn. unfold step_lease_batch.
  destruct (lease_batch c now _ (map (fun l => LKnown l false) (p0 :: ptl)) (msgs (p_q ps))) as [[ms' n] cs].
  simpl. split; [|reflexivity]. eexists. exists cs. split; [reflexivity|].
  destruct cs; simpl; intuition congruence.
Qed.

(** normalizeLeaseIDs: a batch never carries a duplicate, is not empty and respects MaxLeaseBatch *)
Theorem C04pull_batch_normalised : forall fl c pc ps x k o ls,
  call_batch pc (po_call x) = Some (k, o, ls) ->
  pstep fl c pc ps x = pull_batch_call fl c pc (po_cnow x) (po_now x) k o ls ps
  /\ batch_kind_ok k = true /\ kind_opk k = Some o /\ NoDup ls /\ ls <> []
  /\ (0 < p_max_lease_batch pc -> Z.of_nat (length ls) <= p_max_lease_batch pc).
Proof. exact pstep_batch. Qed.

(** requests rejected before any operation change nothing and are answered 400 / 404 / 405 *)
Theorem C04pull_rejected_no_effect : forall fl c pc ps x,
  call_single pc (po_call x) = None -> call_batch pc (po_call x) = None ->
  match po_call x with PAck _ _ | PNack _ _ _ _ _ | PExtend _ _ | PRaw _ => True | _ => False end ->
  fst (fst (pstep fl c pc ps x)) = ps /\ snd (pstep fl c pc ps x) = g0
  /\ In (r_status (snd (fst (pstep fl c pc ps x)))) [400; 404; 405].
Proof.
  intros fl c pc ps x E1 E2 K. pose proof (pstep_other fl c pc ps x E1 E2) as O.
  destruct (pstep fl c pc ps x) as [[ps' r] g]. destruct O as [Eg [_ [_ O]]]. simpl.
  destruct (po_call x); try contradiction; destruct O as [Ep Hs]; auto.
Qed.

(** (d) Dequeue through the pull layer: the pull-level clamp (batch <= 0 -> 1, MaxBatch) composed with the store's
    (1 .. 100): exactly min(clamped batch, ready) items; every lease runs until now + t where t is the requested /
    default TTL capped by MaxLeaseTTL when that is positive, and the store default (30 s) when the value handed down
    is not positive; max_wait is capped by MaxWait. *)
Theorem C04pull_dequeue_clamp : forall fl c pc now route batch ttl wait o ps ps' st req items g,
  Inv (p_q ps) ->
  pull_dequeue fl c pc now route batch ttl wait o ps = (ps', mkResp st (BItems req items), g) ->
  let s2 := deq_pre fl c now o (p_q ps) in
  let b := clamp_batch (pull_batch pc batch) in
  let t := eff_ttl (pull_ttl pc ttl) in
  st = 200 /\ p_down ps = false /\ req = (pull_batch pc batch, pull_wait pc wait, pull_ttl pc ttl)
  /\ Z.of_nat (length items) = Z.min b (Z.of_nat (length (filter (ready now (Some route) (p_target pc)) (msgs s2))))
  /\ b = Z.min mem_dequeue_batch_cap (if 0 <? p_max_batch pc then Z.min (p_max_batch pc) (Z.max 1 batch) else Z.max 1 batch)
  /\ 1 <= b <= mem_dequeue_batch_cap
  /\ (forall i lid att un, In (i, lid, att, un) items ->
        un = now + t /\ now < un /\ ~ In lid (issued (p_q ps))
        /\ exists m0, find_id i (msgs s2) = Some m0 /\ ready now (Some route) (p_target pc) m0 = true /\ att = m_attempt m0 + 1)
  /\ 0 < t
  /\ (pull_ttl pc ttl <= 0 -> t = mem_dequeue_leasettl_default)
  /\ (0 < pull_ttl pc ttl -> t = pull_ttl pc ttl /\ (0 < p_max_ttl pc -> t <= p_max_ttl pc))
  /\ (0 < p_max_wait pc -> pull_wait pc wait <= p_max_wait pc)
  /\ p_cache ps' = p_cache ps /\ g = g0.
Proof.
  intros fl c pc now route batch ttl wait o ps ps' st req items g I H. cbv zeta.
  unfold pull_dequeue in H. destruct (p_down ps) eqn:Dn; [discriminate|].
  destruct (step_dequeue fl c now (Some route) (p_target pc) (pull_batch pc batch) (pull_ttl pc ttl) o (p_q ps)) as [q' r] eqn:E.
  destruct r as [| | |its| | | | |]; try discriminate. inversion H; subst. clear H.
  destruct (dequeue_sound fl c now (Some route) (p_target pc) (pull_batch pc batch) (pull_ttl pc ttl) o (p_q ps) q' items I E)
    as [_ [_ [Hc Hall]]]. cbv zeta in Hc, Hall.
  split; [reflexivity|]. split; [reflexivity|]. split; [reflexivity|]. split; [exact Hc|].
  split; [apply pull_batch_closed|]. split; [apply clamp_batch_range|].
  split.
  { intros i lid att un Hin. destruct (Hall i lid att un Hin) as [m0 [F [R [_ [Ea [Eu [Hlt [Hni _]]]]]]]].
    split; [exact Eu|]. split; [exact Hlt|]. split; [exact Hni|]. exists m0. auto. }
  split; [apply eff_ttl_pos|]. unfold eff_ttl.
  split; [intros Hle; apply Z.leb_le in Hle; rewrite Hle; reflexivity|].
  split; [intros Hp; apply Z.leb_gt in Hp; rewrite Hp; split; [reflexivity | apply cap_le]|].
  split; [apply cap_le | split; reflexivity].
Qed.

(** (e) the cache along every history of calls: never more than RecentLeaseOpCap entries, one entry per
    (lease id, op), empty when TTL or capacity is not positive, and every entry stands for an operation the store
    accepted, expiring exactly RecentLeaseOpTTL after that call; the queue invariant holds too. *)
Theorem C04pull_cache_invariant : forall fl c pc xs,
  let ps := snd (prun fl c pc pinit xs) in
  (length (p_cache ps) <= Z.to_nat (p_recent_cap pc))%nat
  /\ NoDup (ckeys (p_cache ps))
  /\ (cache_off pc = true -> p_cache ps = [])
  /\ (forall e, In e (p_cache ps) ->
        exists e0, In e0 (pull_trace fl c pc xs) /\ In (ckey e) (g_stored (pe_ghost e0))
                   /\ ce_exp e = po_cnow (pe_op e0) + p_recent_ttl pc)
  /\ Inv (p_q ps).
Proof.
  intros fl c pc xs. cbv zeta.
  destruct (prun_decompose fl c pc xs pinit [] (pinv_init pc)) as [[I [J ND Len Off]] _]. auto.
Qed.

Definition ex_cfg := mkCfg 0 false 0 0 1000000 0 0 0.
Definition ex_pc := mkPcfg (Some 1%N) 30000 100 100 0 0 0 (* TTL *) 1000 (* cap *) 2.
Definition o0 := mkOracle [] [] [] [].
Definition ex_enq (i : N) := PStore (Enqueue 100 (mkEnq (Some i) 1%N 1%N None None 5%N 0%N 0%N)).

(** ack, duplicate inside the window (999 < 1000: 204 from the cache), at the end of the window (1000: 409),
    a nack with the acked lease (other op: 409), extend (never cached: 409); status and gRPC code *)
Example C04pull_witness_window :
  map (fun e => (r_status (pe_resp e), grpc_code (pe_resp e), g_stored (pe_ghost e), g_cached (pe_ghost e)))
      (pull_trace Sql ex_cfg ex_pc
         [mkPop 0 100 (ex_enq 7%N) o0;
          mkPop 0 200 (PDequeue 1%N 0 None None) (mkOracle [(7%N, 1%N)] [] [] []);
          mkPop 5000 300 (PAck (PId 1%N false) []) o0;
          mkPop 5999 400 (PAck (PId 1%N true) []) o0;
          mkPop 5500 410 (PNack (PId 1%N false) [] false 0%N 50) o0;
          mkPop 5500 420 (PExtend (PId 1%N false) (Some 50)) o0;
          mkPop 6000 500 (PAck (PId 1%N false) []) o0])
  = [(0, GOk, [], []); (200, GOk, [], []); (204, GOk, [(1%N, OpAck)], []); (204, GOk, [], [(1%N, OpAck)]);
     (409, GFailedPrecondition, [], []); (409, GFailedPrecondition, [], []); (409, GFailedPrecondition, [], [])].
Proof. vm_compute. reflexivity. Qed.

(** the hypotheses of C04pull_idempotent_answer_sound are met by the fourth call of that history *)
Example C04pull_witness_hypotheses :
  let tr := pull_trace Sql ex_cfg ex_pc
         [mkPop 0 100 (ex_enq 7%N) o0;
          mkPop 0 200 (PDequeue 1%N 0 None None) (mkOracle [(7%N, 1%N)] [] [] []);
          mkPop 5000 300 (PAck (PId 1%N false) []) o0;
          mkPop 5999 400 (PAck (PId 1%N true) []) o0] in
  match nth_error tr 3 with
  | Some e => call_single ex_pc (po_call (pe_op e)) = Some (KAck, 1%N) /\ kind_opk KAck = Some OpAck
              /\ r_status (pe_resp e) = 204
              /\ current (po_now (pe_op e)) 1%N (msgs (p_q (pe_before e))) = None
              /\ p_q (pe_after e) = p_q (pe_before e)
  | None => False
  end.
Proof. vm_compute. repeat split; reflexivity. Qed.

(** lease expired and the message re-leased to another worker: the first worker's ack is a conflict and the message
    stays leased under the new id; a nack-then-duplicate-nack after the re-lease is answered 204 without touching it;
    capacity 2: the third success evicts the first entry *)
Definition ex_hist2 : list pop :=
  [mkPop 0 100 (ex_enq 7%N) o0; mkPop 0 100 (ex_enq 8%N) o0; mkPop 0 100 (ex_enq 9%N) o0;
   mkPop 0 200 (PDequeue 1%N 1 (Some 10) None) (mkOracle [(7%N, 1%N)] [] [] []);
   mkPop 0 210 (PDequeue 1%N 1 None None) (mkOracle [(8%N, 2%N)] [] [] []);       (* lease 1 expired at 210 *)
   mkPop 0 220 (PDequeue 1%N 5 None None) (mkOracle [(9%N, 3%N); (7%N, 4%N)] [] [] []);
   mkPop 0 230 (PAck (PId 1%N false) []) o0;                                       (* stale epoch *)
   mkPop 10 240 (PNack (PId 4%N false) [] false 0%N 1000) o0;
   mkPop 20 2000 (PDequeue 1%N 1 None None) (mkOracle [(7%N, 5%N)] [] [] []);
   mkPop 30 2010 (PNack (PId 4%N false) [] false 0%N 77) o0;                      (* duplicate, message re-leased *)
   mkPop 40 2020 (PAck PBlank [PId 2%N false; PId 3%N true; PBlank; PId 2%N false; PId 99%N false]) o0;
   mkPop 50 2030 (PNack (PId 4%N false) [] false 0%N 77) o0].                     (* evicted by the two acks *)

Definition ev0 : pevent := mkPev (mkPop 0 0 (PDown false) o0) (mkResp 0 BNone) g0 pinit pinit.

Example C04pull_witness_release_and_capacity :
  let tr := pull_trace Mem ex_cfg ex_pc ex_hist2 in
  (map (fun e => r_status (pe_resp e)) tr,
   map (fun e => r_body (pe_resp e)) (skipn 10 tr),
   (* message 7 after: the stale ack, the nack by its second worker, the re-lease, the duplicate nack, the end *)
   map (fun e => map (fun m => (m_st m, m_lease m, m_next m)) (filter (fun m => N.eqb (m_id m) 7) (msgs (p_q (pe_after e)))))
       [nth 6 tr ev0;
        nth 7 tr ev0;
        nth 8 tr ev0;
        nth 9 tr ev0;
        nth 11 tr ev0],
   map (fun e => map ckey (p_cache (pe_after e))) (skipn 9 tr))
  = ([0; 0; 0; 200; 200; 200; 409; 204; 200; 204; 409; 409],
     [BBatch 2 [(99%N, false)]; BErr CLeaseConflict],
     [[(Leased, Some 4%N, 30220)]; [(Queued, None, 1240)]; [(Leased, Some 5%N, 32000)]; [(Leased, Some 5%N, 32000)];
      [(Leased, Some 5%N, 32000)]],
     [[(4%N, OpNack)]; [(2%N, OpAck); (3%N, OpAck)]; [(2%N, OpAck); (3%N, OpAck)]]).
Proof. vm_compute. reflexivity. Qed.

(** dequeue clamps: batch 0 -> 1; MaxBatch 3 caps 50; lease ttl capped by MaxLeaseTTL 40; non-positive ttl -> store default *)
Example C04pull_witness_clamp :
  let pc := mkPcfg (Some 1%N) 30000 3 100 40 0 7 1000 2 in
  map (fun e => match r_body (pe_resp e) with BItems req items => (req, map (fun it => snd it) items) | _ => ((0, 0, 0), []) end)
      (skipn 4 (pull_trace Mem ex_cfg pc
         [mkPop 0 100 (ex_enq 1%N) o0; mkPop 0 100 (ex_enq 2%N) o0; mkPop 0 100 (ex_enq 3%N) o0; mkPop 0 100 (ex_enq 4%N) o0;
          mkPop 0 200 (PDequeue 1%N 0 (Some 90) (Some 9)) (mkOracle [(1%N, 1%N)] [] [] []);
          mkPop 0 200 (PDequeue 1%N 50 (Some (-5)) None) (mkOracle [(2%N, 2%N); (3%N, 3%N); (4%N, 4%N)] [] [] [])]))
  = [((1, 7, 40), [240]); ((3, 0, -5), [200 + mem_dequeue_leasettl_default; 200 + mem_dequeue_leasettl_default; 200 + mem_dequeue_leasettl_default])].
Proof. vm_compute. reflexivity. Qed.

Print Assumptions C04pull_idempotent_answer_sound.
Print Assumptions C04pull_cached_answer_has_twin.
Print Assumptions C04pull_stored_was_current.
Print Assumptions C04pull_status_mapping.
Print Assumptions C04pull_hit_iff_entry.
Print Assumptions C04pull_positive_extend_never_idempotent.
Print Assumptions C04pull_nonpositive_extend_noop.
Print Assumptions C04pull_stale_call_no_effect.
Print Assumptions C04pull_batch_call_fenced.
Print Assumptions C04pull_batch_status.
Print Assumptions C04pull_batch_normalised.
Print Assumptions C04pull_rejected_no_effect.
Print Assumptions C04pull_dequeue_clamp.
Print Assumptions C04pull_cache_invariant.
