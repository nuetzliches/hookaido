(** Attempt records ([attempt_rec] of Model/Dispatcher.v, what classifyDelivery hands to recordAttempt) as entries of the store's attempt log
    (Model/Attempts.v): the dispatcher hands them to RecordAttempt with a blank id, so every one of them is appended, in order. *)
From Coq Require Import ZArith List Bool NArith.
From HK Require Import Model.Dispatcher Model.Attempts Proofs.AttemptsProofs.
Import ListNotations.
Open Scope Z_scope.

Definition outcome_n (o : outcome) : N := match o with ORetry => 1 | OAcked => 2 | ODead => 3 end%N.

(** the DeliveryAttempt classifyDelivery fills for a record: event id of the leased message, route / target of the delivery, blank id *)
Definition att_of_record (event_of : N -> N) (route target : N) (created : Z) (x : N * attempt_rec) : att :=
  let '(l, r) := x in
  mkAtt 0 (event_of l) route target (ar_attempt r) (match ar_result r with RStatus c => c | RErr _ => 0 end)
        (outcome_n (ar_outcome r)) created.

(** whatever the records: blank ids are never refused, and a named outcome is stored as it is *)
Lemma records_appended event_of route target created (rs : list (N * attempt_rec)) log :
  fold_left rec1 (map (att_of_record event_of route target created) rs) log
  = log ++ map (att_of_record event_of route target created) rs.
Proof.
  rewrite fold_rec1_blank_ids.
  - f_equal. rewrite map_map. apply map_ext. intros [l r]. unfold att_of_record, norm. cbn.
    destruct (ar_outcome r); reflexivity.
  - apply Forall_forall. intros a Ha. apply in_map_iff in Ha as [[l r] [E _]]. subst a. reflexivity.
Qed.
