(** Facts about lists, for any element type, that the standard library does not offer. *)
From Coq Require Import List.
Import ListNotations.

Lemma In_firstn {A} n (l : list A) x : In x (firstn n l) -> In x l.
Proof. intros H. rewrite <- (firstn_skipn n l). apply in_or_app. left. exact H. Qed.

Lemma filter_none {A} (f : A -> bool) l : (forall x, In x l -> f x = false) -> filter f l = [].
Proof.
  induction l as [|a tl IH]; intros H; [reflexivity|]. simpl. rewrite (H a (or_introl eq_refl)).
  apply IH. intros x Hx. apply H. right. exact Hx.
Qed.

Lemma filter_all {A} (f : A -> bool) l : (forall x, In x l -> f x = true) -> filter f l = l.
Proof.
  induction l as [|a tl IH]; intros H; [reflexivity|]. simpl. rewrite (H a (or_introl eq_refl)). f_equal.
  apply IH. intros x Hx. apply H. right. exact Hx.
Qed.

Lemma NoDup_app_intro {A} (l1 l2 : list A) :
  NoDup l1 -> NoDup l2 -> (forall x, In x l1 -> In x l2 -> False) -> NoDup (l1 ++ l2).
Proof.
  induction l1 as [|a tl IH]; simpl; intros N1 N2 D; [exact N2|].
  inversion N1 as [|? ? Ha Htl]; subst. constructor.
  - intros Hin. apply in_app_or in Hin. destruct Hin as [Hin | Hin]; [contradiction|].
    apply (D a); [left; reflexivity | exact Hin].
  - apply IH; [exact Htl | exact N2|]. intros x Hx Hy. apply (D x); [right; exact Hx | exact Hy].
Qed.

Lemma NoDup_app_inv {A} (l1 l2 : list A) :
  NoDup (l1 ++ l2) -> NoDup l1 /\ NoDup l2 /\ forall x, In x l1 -> ~ In x l2.
Proof.
  induction l1 as [|y tl IH]; simpl; intros ND; [split; [constructor | split; [exact ND | intros x []]]|].
  inversion ND as [|? ? Hy NDt]; subst. destruct (IH NDt) as [ND1 [ND2 Dis]]. split; [|split; [exact ND2|]].
  - constructor; [|exact ND1]. intros Hin. apply Hy. apply in_or_app. left. exact Hin.
  - intros x [Hx | Hx] H2; [subst y; apply Hy; apply in_or_app; right; exact H2 | exact (Dis x Hx H2)].
Qed.

Lemma NoDup_app_r {A} (l1 l2 : list A) : NoDup (l1 ++ l2) -> NoDup l2.
Proof. intros H. apply (NoDup_app_inv l1 l2 H). Qed.

Lemma NoDup_snoc {A} (l : list A) x : NoDup l -> ~ In x l -> NoDup (l ++ [x]).
Proof. intros ND Hn. apply (NoDup_Add (Add_app x l [])). rewrite app_nil_r. auto. Qed.

Lemma NoDup_map_inj {A B} (f : A -> B) l a b : NoDup (map f l) -> In a l -> In b l -> f a = f b -> a = b.
Proof.
  induction l as [|x tl IH]; simpl; intros ND Ha Hb E; [destruct Ha|].
  inversion ND as [|? ? Hx Htl]; subst.
  destruct Ha as [Ha | Ha]; destruct Hb as [Hb | Hb].
  - congruence.
  - subst x. exfalso. apply Hx. rewrite E. apply in_map. exact Hb.
  - subst x. exfalso. apply Hx. rewrite <- E. apply in_map. exact Ha.
  - apply IH; assumption.
Qed.

(** what every step preserves, the whole fold preserves *)
Lemma fold_left_inv {A B} (P : A -> Prop) (f : A -> B -> A) :
  (forall a b, P a -> P (f a b)) -> forall bs a, P a -> P (fold_left f bs a).
Proof. intros Hf bs. induction bs as [|b bs IH]; intros a Ha; cbn [fold_left]; auto. Qed.
