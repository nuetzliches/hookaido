(** C13, the delivery-attempt log of the Store contract (RecordAttempt / ListAttempts): one model for every
    backend.  The memory and the SQLite store are each compared with this model on the same operation
    sequences (lib/c13att.py), so what is proved here about the model is what both must show - and
    therefore what they show alike.  The statements, each derived from the lemmas of Proofs/AttemptsProofs.v. *)
From Coq Require Import ZArith NArith List Bool Sorting.Permutation Sorting.Sorted Lia.
From HK Require Import Model.Attempts Proofs.ListFacts Proofs.AttemptsProofs.
Import ListNotations.
Open Scope Z_scope.

(** the log only grows: whatever operations follow - any number of further attempts, listings, refused
    duplicates - everything that was in the log is still there, unchanged and in place *)
Theorem C13_attempt_log_is_append_only : forall ops log,
  exists ext, log_after log ops = log ++ ext.
Proof. exact log_after_ext. Qed.

(** RecordAttempt either appends exactly the (normalised) attempt, or - when its non-blank id is already in the log -
    fails and changes nothing; non-blank ids therefore stay unique *)
Theorem C13_record_appends_or_refuses_a_duplicate_id : forall log a,
  (dup_id log a = false -> record log a = (log ++ [norm a], true))
  /\ (dup_id log a = true -> record log a = (log, false)).
Proof. intros log a. split; [apply record_fresh|apply record_dup]. Qed.

Theorem C13_attempt_ids_stay_unique : forall ops log, ids_unique log -> ids_unique (log_after log ops).
Proof.
  intros ops. apply fold_left_inv. intros log [a|s n|q] U; cbn [astep fst].
  - now apply rec1_unique.
  - revert U. apply fold_left_inv. intros l x. apply rec1_unique.
  - exact U.
Qed.

(** a listing is the newest [limit] of the attempts matching every criterion: the listed ones and the
    left-out ones together are exactly the matching ones, every listed one is at least as new as every
    left-out one, the listing is ordered newest first (ties by id), and its length is min(limit, matching) *)
Theorem C13_list_attempts_is_the_newest_matching : forall log q,
  let r := list_attempts log q in
  let rest := skipn (eff_limit q) (AttSort.sort (filter (matches q) log)) in
  Permutation (r ++ rest) (filter (matches q) log)
  /\ (forall a b, In a r -> In b rest -> newer_eq a b = true)
  /\ StronglySorted (fun a b => is_true (newer_eq a b)) r
  /\ length r = Nat.min (eff_limit q) (length (filter (matches q) log))
  /\ (forall a, In a r -> In a log /\ matches q a = true).
Proof.
  intros log q r rest. subst r rest. unfold list_attempts.
  set (s := AttSort.sort (filter (matches q) log)).
  assert (P : Permutation s (filter (matches q) log)) by (symmetry; apply AttSort.Permuted_sort).
  destruct (strong_cut _ (eff_limit q) s (sorted_strong _)) as [S C].
  repeat apply conj.
  - rewrite firstn_skipn. exact P.
  - exact C.
  - exact S.
  - rewrite firstn_length. rewrite (Permutation_length P). reflexivity.
  - intros a Ha. apply filter_In. eapply Permutation_in; [exact P|]. eapply In_firstn. exact Ha.
Qed.

(** an attempt once accepted is listed by every later query it matches, as long as the matching attempts do
    not exceed the limit - whatever was recorded before and after it *)
Theorem C13_recorded_attempt_stays_listed : forall log0 ops1 a ops2 q,
  let log := log_after log0 (ops1 ++ ARec a :: ops2) in
  snd (record (log_after log0 ops1) a) = true ->
  matches q (norm a) = true ->
  (length (filter (matches q) log) <= eff_limit q)%nat ->
  In (norm a) (list_attempts log q).
Proof.
  intros log0 ops1 a ops2 q log Hacc Hm Hl. apply list_attempts_complete_under_limit; [exact Hl| |exact Hm].
  subst log. rewrite log_after_app. set (L1 := log_after log0 ops1) in *.
  change (log_after L1 (ARec a :: ops2)) with (log_after (rec1 L1 a) ops2).
  destruct (log_after_ext ops2 (rec1 L1 a)) as [ext ->].
  apply in_or_app. left. unfold rec1, record in *. destruct (dup_id L1 a); [discriminate|].
  apply in_or_app. right. left. reflexivity.
Qed.

(** non-vacuity: one attempt of event 7, then 12,000 generated attempts of other events; the query for event 7
    matches once (within the limit) and lists it *)
Example C13_attempt_example :
  let a := mkAtt 9999999 7 1 10 1 503 0 1600000000000000000 in
  let q := mkAReq 0 0 7 0 10 None in
  let log := log_after [] ([ARec a; AGen 0 12000]) in
  Z.of_nat (length log) = 12001 /\ snd (record [] a) = true /\ matches q (norm a) = true
  /\ (length (filter (matches q) log) <= eff_limit q)%nat
  /\ map a_event (list_attempts log q) = [7%N].
Proof.
  intros a q log.
  (* the generated ids 1 .. 12000 are distinct and differ from a's, so all are accepted; their events
     are >= 100, so only a matches q: nothing below looks at the 12000 attempts themselves *)
  assert (L : log = [norm a] ++ map norm (gen_from 0 (Z.to_nat 12000))).
  { apply fold_rec1_distinct; [now apply gen_from_NoDup|].
    intros x Hx. apply gen_from_In in Hx as [i [Hi ->]]. cbn. lia. }
  assert (F : filter (matches q) log = [norm a]).
  { rewrite L, filter_app, (filter_none _ (map norm _)); [reflexivity|].
    intros x Hx. apply not_true_iff_false. intros M.
    apply in_map_iff in Hx as [y [<- Hy]]. apply gen_from_In in Hy as [i [_ ->]].
    pose proof (gen_att_event i). apply matches_event in M. cbn [q q_event norm a_event] in *. lia. }
  unfold list_attempts. rewrite F.
  split; [|split; [reflexivity|split; [reflexivity|split; [cbn; lia | reflexivity]]]].
  rewrite L, app_length, map_length, gen_from_length. cbn [length]. lia.
Qed.

(** non-vacuity of the refusal: the second attempt under id 5 is refused, the log keeps the first *)
Example C13_attempt_duplicate_example :
  let a := mkAtt 5 1 1 1 1 (-7) 1 1700000000000000000 in
  let b := mkAtt 5 2 1 1 2 200 2 1700000000000000001 in
  arun [] [ARec a; ARec b; AList (mkAReq 0 0 0 0 0 None)] = [[-1]; enc_att (norm a)].
Proof. vm_compute. reflexivity. Qed.

Print Assumptions C13_attempt_log_is_append_only.
Print Assumptions C13_record_appends_or_refuses_a_duplicate_id.
Print Assumptions C13_attempt_ids_stay_unique.
Print Assumptions C13_list_attempts_is_the_newest_matching.
Print Assumptions C13_recorded_attempt_stays_listed.
