(** C14 - operator mutations touch exactly what they name: the MCP queue tools in Admin-proxy mode (queue backend
    memory / postgres: the tool validates its arguments, sends ONE Admin API request and hands the answer back;
    Model/ManageProxy.v), composed with the request layer of Properties/C14admin.v.  Statements, each derived from the
    lemmas of Proofs/ManageProxyProofs.v. *)
From Coq Require Import String.
From Coq Require Import List ZArith NArith Bool Lia.
From HK Require Import Model.Queue Model.Headers Model.Publish Model.ManageGlue Model.ManageProxy Gen.AdminProxy
  Proofs.QueueInv Proofs.ManageGlueProofs Proofs.ManageProxyProofs Proofs.AdminProxyShape.
Import ListNotations.
Open Scope Z_scope.

(** (a) the Admin request built from accepted tool arguments carries exactly the selection the tool was given:
    POST with the configured bearer token; reason / request id as given, actor = the MCP principal; id tools: the
    endpoint of the tool's operation and the trimmed, de-duplicated id list - which the Admin server's own parser reads
    back unchanged; by-filter tools: limit (1..1000, default 100 made explicit), preview flag, state, target, cursor and
    route exactly as parsed - on the global endpoint, or on the endpoint-scoped path of the selector (which pins the
    route itself) *)
Theorem C14proxy_request_faithful : forall e t q,
  proxy_decide e t = PSend q ->
  xe_gate e = true /\ xe_allowed e = true
  /\ match t with
     | PtIds k a =>
         audit_carried e (xi_audit a) (sn_req q)
         /\ exists raw idl, xi_ids a = IBIds raw /\ mcp_parse_ids raw = Some idl
              /\ sn_ep q = EpIds k /\ sn_body q = BIds (IBIds (store_ids idl))
              /\ parse_manage_ids (store_ids idl) = Some idl
              /\ (forall i, In i idl <-> exists r, In r raw /\ trimmed_id r = Some i)
     | PtFilter k a =>
         audit_carried e (xf_audit a) (sn_req q)
         /\ exists p b, mcp_parse_filter (mcp_filter_tool_states k) (mf_of (xe_principal e) a) = Some p
              /\ sn_body q = BFilter (FBOk b)
              /\ fb_limit b = pf_limit p /\ 1 <= fb_limit b <= 1000 /\ fb_preview b = pf_preview p /\ pf_preview p = xf_preview a
              /\ mcp_limit (xf_limit a) = Some (fb_limit b)
              /\ ((sn_ep q = EpFilter k
                   /\ parse_filter (filter_endpoint_states k) b
                      = Some (mkPF (pf_route p) (pf_target p) (pf_state p) (pf_limit p) (pf_before p) (pf_preview p) LBlank LBlank))
                  \/ (exists ap ep rt, pf_app p = LValid ap /\ pf_ep p = LValid ep /\ find_endpoint (xe_cfg e) ap ep = Some rt
                        /\ sn_ep q = EpScopedFilter k (LValid ap) (LValid ep)
                        /\ parse_filter (filter_endpoint_states k) b
                           = Some (mkPF RSBlank (pf_target p) (pf_state p) (pf_limit p) (pf_before p) (pf_preview p) LBlank LBlank)))
     end.
Proof.
  intros e t q D. destruct t as [k a | k a]; simpl in D |- *.
  - destruct (ids_tool_cases e k a) as [[R _] | (rq & raw & idl & G & Pa & Ei & P & Ep & _)]; [congruence|].
    rewrite Ep in D. destruct (xe_allowed e); [|discriminate]. injection D as <-.
    split; [exact G|]. split; [reflexivity|]. split; [apply (sent_audit_carried _ _ _ Pa)|].
    exists raw, idl. split; [exact Ei|]. split; [exact P|]. split; [reflexivity|]. split; [reflexivity|].
    split; [apply (admin_reparses_ids _ _ P)|].
    destruct (parse_ids_with_some _ _ _ P) as (_ & _ & -> & _). apply parsed_ids_In.
  - destruct (filter_tool_cases e k a) as [[R _] | (rq & p & route & ep & wr & G & Pa & P & _ & Ep & Hc)]; [congruence|].
    rewrite Ep in D. destruct (xe_allowed e); [|discriminate]. injection D as <-.
    destruct (mcp_parse_filter_some _ _ _ P) as (_ & _ & Lm & _ & _ & _ & _ & _ & Pv & _).
    destruct (mcp_limit_reaches_store _ _ Lm) as [_ [_ R]].
    split; [exact G|]. split; [reflexivity|]. split; [apply (sent_audit_carried _ _ _ Pa)|].
    exists p, (body_of_pfilt wr p). split; [exact P|]. split; [reflexivity|]. split; [reflexivity|]. split; [exact R|].
    split; [reflexivity|]. split; [exact Pv|]. split; [exact Lm|].
    destruct Hc as [(-> & -> & _) | (ap & en & rt & Eapp & Een & F & _ & -> & -> & _)].
    + left. split; [reflexivity | apply (admin_reparses_filter k _ p true P)].
    + right. exists ap, en, rt. repeat split; try assumption. apply (admin_reparses_filter k _ p false P).
Qed.

(** [audit_carried] spelled out *)
Theorem C14proxy_audit_carried_spec : forall e a q,
  audit_carried e a q <->
  (h_post q = true /\ h_auth q = xe_auth e
   /\ a_reason (h_audit q) = pa_reason a /\ pa_reason a <> []
   /\ a_reqid (h_audit q) = pa_reqid a
   /\ a_actor (h_audit q) = (if is_nil (pa_actor a) then xe_principal e else pa_actor a)
   /\ (xe_principal e <> [] -> a_actor (h_audit q) = xe_principal e)).
Proof. reflexivity. Qed.

(** (b) a success result of the tool IS the Admin API's answer to that one request (sent once, served once), the store
    afterwards is the store after that request, and - by the theorems of C14admin - its numbers count the rows changed:
    ids: count = rows changed; by-filter: matched = |selection| (at most limit), preview changes nothing and reports 0,
    a real run reports changed = matched = rows changed *)
Theorem C14proxy_counts_faithful : forall e now t fs s s' r sent seen,
  Inv s -> proxy_request e now t fs s = (s', r, (sent, seen)) -> status_of r = 200 ->
  exists q, proxy_decide e t = PSend q
    /\ sent_handler (xe_cfg e) now q s = (s', r)
    /\ sent = 1%nat /\ seen = 1%nat
    /\ match r with
       | HIdsOk n => n = changed_count (msgs s) (msgs s')
       | HFilterOk m n p =>
           exists k f, decide (xe_cfg e) (sn_ep q) (sn_req q) (sn_body q) (msgs s) = DCall (SCFilter k f)
             /\ p = f_preview f /\ m = Z.of_nat (length (filter_select (fk_kind k) f (msgs s)))
             /\ (if p then s' = s /\ n = 0 else n = m /\ n = changed_count (msgs s) (msgs s'))
       | HErr _ _ => False
       end.
Proof.
  intros e now t fs s s' r sent seen I H Hs. destruct (proxy_decide e t) as [|q] eqn:D.
  - rewrite (proxy_request_reject _ _ _ _ _ D) in H. injection H as _ <- _ _. discriminate.
  - pose proof (proxy_request_sent e now t fs s q D) as X. rewrite H in X.
    (* a success is not the error result: the request was served and this is the handler's answer *)
    destruct X as [-> [[_ [_ ->]] | [-> [Es [-> | Er]]]]]; try discriminate.
    symmetry in Er. destruct (tool_result_ok _ _ Er Hs) as [[= Eh] Hne].
    assert (E : sent_handler (xe_cfg e) now q s = (s', r)) by (rewrite Es, <- Eh; apply surjective_pairing).
    exists q. split; [reflexivity|]. split; [exact E|]. split; [reflexivity|]. split; [reflexivity|].
    unfold sent_handler, admin_request in E. pose proof (serve_inv _ _ _ _ _ E) as V.
    destruct r as [st g | n | m n p].
    + apply (Hne st g). reflexivity.
    + destruct V as [k [idl V]]. rewrite V in E. apply (response_counts_ids _ _ _ _ _ _ I E).
    + destruct V as [k [f V]]. rewrite V in E. exists k, f. split; [exact V|].
      apply (response_counts_filter _ _ _ _ _ _ _ _ I E).
Qed.

(** (c) refusals: a call the tool refuses sends nothing and changes nothing; a request the Admin API refuses changes
    nothing whatever else the transport does; and every outcome that is not a success is the tool's error result
    (isError) - a failure is never reported as a success *)
Theorem C14proxy_refusals : forall e now t fs s,
  (proxy_decide e t = PReject -> proxy_request e now t fs s = (s, HErr 0 GToolError, (O, O)))
  /\ (forall q st c, proxy_decide e t = PSend q -> snd (sent_handler (xe_cfg e) now q s) = HErr st c ->
        exists n, proxy_request e now t fs s = (s, HErr 0 GToolError, n))
  /\ (forall s' r n, proxy_request e now t fs s = (s', r, n) -> status_of r <> 200 -> r = HErr 0 GToolError).
Proof. exact refusals. Qed.

(** the by-filter tools refuse in proxy mode exactly what they refuse in direct (SQLite) mode, plus what the endpoint
    allowlist stops *)
Theorem C14proxy_filter_refusal_as_direct : forall e k a,
  proxy_decide_filter e k a = PReject <->
  (xe_allowed e = false \/ exists st c, mcp_decide_filter (direct_env e) k (mf_of (xe_principal e) a) = DReject st c).
Proof.
  intros e k a. destruct (filter_tool_cases e k a) as [[R Dr] | (rq & p & route & ep & wr & _ & _ & _ & Dc & Ep & _)]; cbv zeta in *.
  - split; [intros _; right; exists 0, GToolError; exact Dr | intros _; exact R].
  - rewrite Ep, Dc. destruct (xe_allowed e); split; try discriminate; auto.
    intros [[=] | (st & c & [=])].
Qed.

(** (d) the retry policy as the code has it: one attempt for every method but GET, three for GET; never after the last
    attempt; otherwise after a transport error and after 408 / 429 / 500 / 502 / 503 / 504 *)
Theorem C14proxy_retry_policy :
  max_attempts MPost = 1%nat /\ max_attempts MGet = 3%nat
  /\ (forall st, should_retry true st = false)
  /\ should_retry false None = true
  /\ (forall st, should_retry false (Some st) = true
                 <-> st = 408 \/ st = 429 \/ st = 500 \/ st = 502 \/ st = 503 \/ st = 504).
Proof. repeat split; try reflexivity; apply retry_status_iff. Qed.

(** (d) the consequence: for EVERY fault script a tool call sends at most one request, the Admin handler serves at most
    one, and the store afterwards is the store before (nothing served) or the store after that one request *)
Theorem C14proxy_at_most_once : forall e now t fs s s' r sent seen,
  proxy_request e now t fs s = (s', r, (sent, seen)) ->
  (sent <= 1)%nat /\ (seen <= sent)%nat
  /\ (seen = 0%nat -> s' = s)
  /\ (seen = 1%nat -> exists q, proxy_decide e t = PSend q /\ s' = fst (sent_handler (xe_cfg e) now q s)).
Proof.
  intros e now t fs s s' r sent seen H. destruct (proxy_decide e t) as [|q] eqn:D.
  - rewrite (proxy_request_reject _ _ _ _ _ D) in H. injection H as <- _ <- <-. repeat split; lia.
  - pose proof (proxy_request_sent e now t fs s q D) as X. rewrite H in X.
    destruct X as [-> [[-> [-> _]] | [-> [-> _]]]]; repeat split; try lia; try discriminate. eauto.
Qed.

Theorem C14proxy_at_most_once_state : forall e now t fs s s' r n,
  proxy_request e now t fs s = (s', r, n) ->
  s' = s \/ exists q, proxy_decide e t = PSend q /\ s' = fst (sent_handler (xe_cfg e) now q s).
Proof.
  intros e now t fs s s' r [sent seen] H. destruct (C14proxy_at_most_once _ _ _ _ _ _ _ _ _ H) as [A [B [C D]]].
  destruct seen as [|[|k]]; [left; apply C; reflexivity | right; apply D; reflexivity | lia].
Qed.

(** the attempt loop in general: never more requests than attempts, never more served than sent; a handler that only
    reads leaves the store alone however often it is retried (the listing tools: up to three GETs, no effect) *)
Theorem C14proxy_attempt_bounds : forall left fs h s s' c sent seen,
  call_admin left fs h s = (s', c, (sent, seen)) -> (sent <= left)%nat /\ (seen <= sent)%nat.
Proof. exact call_admin_bounds. Qed.

Theorem C14proxy_reads_do_not_write : forall e fs s s' r sent seen,
  proxy_read e fs s = (s', r, (sent, seen)) -> s' = s /\ (sent <= 3)%nat /\ (seen <= sent)%nat.
Proof.
  intros e fs s s' r sent seen. unfold proxy_read. destruct (xe_gate e); cbn [negb]; [|intros [= <- _ <- <-]; repeat split; lia].
  destruct (xe_allowed e); cbn [negb]; [|intros [= <- _ <- <-]; repeat split; lia].
  pose proof (call_admin_read_only (max_attempts MGet) fs (read_handler (xe_auth e)) s (fun _ => eq_refl)) as R.
  destruct (call_admin (max_attempts MGet) fs (read_handler (xe_auth e)) s) as [[s1 c] [a b]] eqn:E.
  intros [= <- _ <- <-]. split; [exact R | apply (call_admin_bounds _ _ _ _ _ _ _ _ E)].
Qed.

(** the source read on this run has the shape the model of callAdminJSON assumes: one client.Do, inside
    [for attempt := 1; attempt <= maxAttempts; attempt++]; [maxAttempts := 1], raised (to adminProxyRetryMaxGET = 3) only under
    the GET test; every [continue] directly under shouldRetryAdminProxyCall(attempt, maxAttempts, ..), whose first statement
    is [if attempt >= maxAttempts { return false }]; retry statuses 408 429 500 502 503 504 *)
Theorem C14proxy_source_shape :
  ap_shape_ok = true /\ ap_only_get_raises = true /\ ap_retries_guarded = true /\ ap_last_attempt_final = true
  /\ ap_attempts_default = 1 /\ ap_attempts_get = ap_retry_max_get /\ ap_retry_max_get = 3
  /\ ap_retry_statuses = [408; 429; 500; 502; 503; 504].
Proof. repeat split; reflexivity. Qed.

(** every queue-mutation tool function sends exactly one kind of request through callAdminJSON: POST - the method that gets
    one attempt - to the endpoint of its own operation (by-filter: the global path or the endpoint-scoped path of the same
    verb); and no tool function proxies anything but GET and POST *)
Theorem C14proxy_mutation_tools_post_once :
  mutation_tool_calls =
  [("toolMessagesCancel", [("POST", "/messages/cancel")]);
   ("toolMessagesRequeue", [("POST", "/messages/requeue")]);
   ("toolMessagesResume", [("POST", "/messages/resume")]);
   ("toolDLQRequeue", [("POST", "/dlq/requeue")]);
   ("toolDLQDelete", [("POST", "/dlq/delete")]);
   ("toolMessagesCancelByFilter", [("POST", "/messages/cancel_by_filter|managedEndpointMessageActionPath(cancel_by_filter)")]);
   ("toolMessagesRequeueByFilter", [("POST", "/messages/requeue_by_filter|managedEndpointMessageActionPath(requeue_by_filter)")]);
   ("toolMessagesResumeByFilter", [("POST", "/messages/resume_by_filter|managedEndpointMessageActionPath(resume_by_filter)")])]%string.
Proof. vm_compute. reflexivity. Qed.

Theorem C14proxy_proxied_methods :
  forallb (fun e => forallb (fun c => (String.eqb (fst c) "GET" || String.eqb (fst c) "POST")%string) (snd e)) ap_tool_calls = true.
Proof. vm_compute. reflexivity. Qed.

(** proxy mode and direct mode agree: with the transport intact, a token the Admin server accepts and the endpoint allowed,
    a tool call in Admin-proxy mode leaves the store and answers exactly as the same call in direct (SQLite) mode does - so
    every theorem of Properties/C14admin.v about the MCP tools (selection exact, limit, counts, preview) holds for the proxied
    tools as well.  ([audit_normal]: reason / request id / principal as parseString returns them - trimmed - and within the
    length caps validateMutationAuditFields enforces.) *)
Theorem C14proxy_agrees_with_direct : forall e now t s,
  xe_auth e = true -> xe_allowed e = true -> xe_principal e <> [] -> audit_normal (xe_principal e) (tool_audit t) ->
  fst (proxy_request e now t [] s) = mcp_request (direct_env e) now (direct_tool e t) s.
Proof. intros e now t s. exact (proxy_agrees_when_passed e now t [] s eq_refl). Qed.

(** non-vacuity: the lost answer (applied once, reported as an error, the second scripted attempt never happens), and
    what a second attempt for writes would do (two messages canceled for limit 1, one reported) *)
Example C14proxy_ex_lost_answer :
  let '(s', r, n) := proxy_request px_env 100 (px_filter 1) [FtLost; FtPass] (state_of ex_pop) in
  (px_states s', r, n)
  = ([(1%N, Queued); (2%N, Dead); (3%N, Canceled); (4%N, Delivered); (5%N, Canceled)], HErr 0 GToolError, (1%nat, 1%nat)).
Proof. exact ex_lost_answer_applied_once. Qed.

Example C14proxy_ex_second_attempt_would_double :
  match proxy_decide px_env (px_filter 1) with
  | PSend q =>
      let '(s', c, n) := call_admin 2 [FtLost; FtPass] (sent_handler px_ctx 100 q) (state_of ex_pop) in
      (px_states s', tool_result c, n)
      = ([(1%N, Canceled); (2%N, Dead); (3%N, Canceled); (4%N, Delivered); (5%N, Canceled)], HFilterOk 1 1 false, (2%nat, 2%nat))
  | PReject => False
  end.
Proof. exact ex_second_attempt_would_double. Qed.

Print Assumptions C14proxy_request_faithful.
Print Assumptions C14proxy_audit_carried_spec.
Print Assumptions C14proxy_counts_faithful.
Print Assumptions C14proxy_refusals.
Print Assumptions C14proxy_filter_refusal_as_direct.
Print Assumptions C14proxy_retry_policy.
Print Assumptions C14proxy_at_most_once.
Print Assumptions C14proxy_at_most_once_state.
Print Assumptions C14proxy_attempt_bounds.
Print Assumptions C14proxy_reads_do_not_write.
Print Assumptions C14proxy_source_shape.
Print Assumptions C14proxy_mutation_tools_post_once.
Print Assumptions C14proxy_proxied_methods.
Print Assumptions C14proxy_agrees_with_direct.
