(** C13 - queue backends are observationally equivalent.
    The model has one function per Store method with a flavour parameter; these theorems state
    exactly where the two flavours can differ. Each real backend is tied to its own flavour by the
    per-step correspondence, and the two real backends are also compared with each other directly
    (props/c13.py).  The statements, each derived from the lemmas of Proofs/QueueFlavour.v, QueueFlavourHist.v
    and QueueAdmit.v. *)
From Coq Require Import List ZArith NArith Bool.
From HK Require Import Model.Queue Proofs.QueueStep Proofs.QueueFlavour Proofs.QueueAdmit
  Proofs.QueueFlavourHist.
Import ListNotations.
Open Scope Z_scope.

(** ack/nack/extend/dead (single and batch), cancel/requeue/resume/DLQ requeue/DLQ delete (by id and by
    filter), list, DLQ list, lookup, stats: same result, same observable state, for every argument *)
Theorem C13_flavour_free_operations_agree : forall c x o sm ss,
  flavour_free x = true -> same_obs sm ss ->
  snd (step Mem c sm x o) = snd (step Sql c ss x o)
  /\ same_obs (fst (step Mem c sm x o)) (fst (step Sql c ss x o)).
Proof. exact flavour_free_agree. Qed.

(** dequeue: same result and state for the same choice among eligible messages whenever the SQLite
    call sweeps; the only other regime is the bounded sweep delay of C05 *)
Theorem C13_dequeue_agrees_when_sweeping : forall c now route target batch ttl o sm ss,
  same_obs sm ss -> sql_sweep_due now (last_sweep ss) = true ->
  snd (step_dequeue Mem c now route target batch ttl o sm) = snd (step_dequeue Sql c now route target batch ttl o ss)
  /\ same_obs (fst (step_dequeue Mem c now route target batch ttl o sm)) (fst (step_dequeue Sql c now route target batch ttl o ss)).
Proof. exact dequeue_agree. Qed.

(** enqueue (single and batch): same result and state without a depth limit or under the reject
    policy, as long as the memory-only resource rules (memory pressure, delivered-retention depth
    term) do not fire.  [C13_..._partial]: under drop_oldest the two flavours additionally agree only
    up to the choice of victim among equally old queued messages; both choices are proved to be an
    oldest queued message (C12), the equality of the remaining state is checked by the correspondence. *)
Theorem C13_enqueue_agrees_partial : forall c now single es o sm ss,
  (single = true -> length es = 1%nat) ->
  same_obs sm ss -> c_drop_oldest c = false \/ c_max_depth c <= 0 ->
  mem_rules_off c (msgs (prune c now (o_gone o) ss)) ->
  snd (step_enqueue Mem c now single es o sm) = snd (step_enqueue Sql c now single es o ss)
  /\ msgs (fst (step_enqueue Mem c now single es o sm)) = msgs (fst (step_enqueue Sql c now single es o ss))
  /\ issued (fst (step_enqueue Mem c now single es o sm)) = issued (fst (step_enqueue Sql c now single es o ss))
  /\ last_prune (fst (step_enqueue Mem c now single es o sm)) = last_prune (fst (step_enqueue Sql c now single es o ss)).
Proof. exact enqueue_agree_reject. Qed.

(** under drop_oldest both backends evict an oldest queued message (by received_at) *)
Theorem C13_victims_equally_old_sql : forall hint l v,
  sql_victim hint l = Some v ->
  exists m, In m l /\ m_id m = v /\ queuedb m = true /\ forall q, In q l -> queuedb q = true -> m_recv m <= m_recv q.
Proof. exact sql_victim_oldest. Qed.

Theorem C13_victims_equally_old_mem : forall ord l vs m,
  mem_oldest ord l vs None = Some m ->
  forall i q, In i ord -> find_id i l = Some q -> queuedb q = true -> ~ In i vs -> m_recv m <= m_recv q.
Proof. intros ord l vs m H. exact (proj2 (mem_oldest_min ord l vs None m H)). Qed.

(** the normalisation constants of the two backends (batch default/cap, default lease TTL, list and
    filter limits), regenerated from memory.go and sqlite.go on every run, are the same numbers - the
    model uses one set for both flavours *)
Theorem C13_backend_constants_agree :
  Gen.Consts.sql_dequeue_batch_default = Gen.Consts.mem_dequeue_batch_default
  /\ Gen.Consts.sql_dequeue_batch_cap = Gen.Consts.mem_dequeue_batch_cap
  /\ Gen.Consts.sql_dequeue_leasettl_default = Gen.Consts.mem_dequeue_leasettl_default
  /\ Gen.Consts.sql_list_limit_default = Gen.Consts.mem_list_limit_default
  /\ Gen.Consts.sql_list_limit_cap = Gen.Consts.mem_list_limit_cap
  /\ Gen.Consts.sql_filter_limit_default = Gen.Consts.mem_filter_limit_default
  /\ Gen.Consts.sql_filter_limit_cap = Gen.Consts.mem_filter_limit_cap
  /\ Gen.Consts.mem_filter_limit_default = Gen.Consts.mem_list_limit_default
  /\ Gen.Consts.mem_filter_limit_cap = Gen.Consts.mem_list_limit_cap.
Proof. repeat split; reflexivity. Qed.

Example C13_witness :
  let e := mkEnq (Some 7%N) 1%N 1%N None None 5%N 0%N 0%N in
  let o0 := mkOracle [] [] [] [] in
  let h := [(Enqueue 100 e, o0);
            (Dequeue 20000000 None None 1 1000, mkOracle [(7%N, 1%N)] [] [] []);
            (LeaseOp 20000300 (KNack 0) (LKnown 1%N true), o0);
            (ListDead 20000400 None 0 None, o0)] in
  map ev_res (model_trace Mem (mkCfg 3 false 0 0 0 0 0 0) h) = map ev_res (model_trace Sql (mkCfg 3 false 0 0 0 0 0 0) h)
  /\ map ev_after (model_trace Mem (mkCfg 3 false 0 0 0 0 0 0) h) = map ev_after (model_trace Sql (mkCfg 3 false 0 0 0 0 0 0) h).
Proof. vm_compute. split; reflexivity. Qed.

(** Over whole histories: started in states with the same observable content, the two flavours return the
    same result and hold the same stored messages after EVERY operation of a history, as long as each
    step stays in a regime in which the backends are specified to agree ([agree_hist]: every SQLite
    dequeue sweeps, i.e. the sweep interval has passed since the last sweeping dequeue; enqueues under
    the reject policy or without depth limit, with the memory-only resource rules not firing; no process
    restart in between).  The per-step theorems above say what the other regimes are. *)
Theorem C13_flavours_agree_along_history : forall c xs sm ss,
  same_obs sm ss -> agree_hist c ss xs ->
  map ev_res (fst (run Mem c sm xs)) = map ev_res (fst (run Sql c ss xs))
  /\ map ev_after (fst (run Mem c sm xs)) = map ev_after (fst (run Sql c ss xs))
  /\ same_obs (snd (run Mem c sm xs)) (snd (run Sql c ss xs)).
Proof.
  intros c xs. induction xs as [|[x o] tl IH]; intros sm ss S H; [split; [reflexivity | split; [reflexivity | exact S]]|].
  destruct H as [Hok Htl]. cbn [run].
  destruct (step_agree c x o sm ss S Hok) as [Er Es].
  destruct (step Mem c sm x o) as [sm' rm] eqn:Em. destruct (step Sql c ss x o) as [ss' rs] eqn:Eq.
  cbn [fst snd] in *. subst rs.
  destruct (IH sm' ss' Es Htl) as [A [B Cc]].
  destruct (run Mem c sm' tl) as [evm fm]. destruct (run Sql c ss' tl) as [evs fs]. cbn [fst snd map ev_res ev_after] in *.
  pose proof Es as [Em1 _]. rewrite A, B, Em1. split; [reflexivity | split; [reflexivity | exact Cc]].
Qed.

(** without a depth limit and without an explicit memory-pressure limit an enqueue never leaves that regime *)
Theorem C13_unlimited_queue_enqueues_agree : forall c l, c_max_depth c <= 0 -> c_press_items c <= 0 -> mem_rules_off c l.
Proof.
  intros c l Hd Hp. unfold mem_rules_off, pressure, press_item_limit. split; [|right; exact Hd].
  rewrite (proj2 (Z.ltb_ge _ _) Hp), (proj2 (Z.leb_le _ _) Hd). reflexivity.
Qed.

(** non-vacuity: the premise holds for a history with retention pruning, batch enqueue, dequeues 10 ms apart, nack, dead-letter, requeue *)
Example C13_history_premise_met :
  let e i := mkEnq (Some i) 1%N 1%N None None 5%N 0%N 0%N in
  let o0 := mkOracle [] [] [] [] in
  let c := mkCfg 0 false 100000000 1 0 0 2 0 in
  let h := [(EnqueueBatch 100 [e 1%N; e 2%N; e 3%N], o0);
            (Dequeue 20000000 None None 2 1000, mkOracle [(1%N, 11%N); (2%N, 12%N)] [] [] []);
            (LeaseOp 20000300 (KNack 5) (LKnown 11%N false), o0);
            (LeaseBatch 20000400 (KDead 3%N) [LKnown 12%N false; LUnknown], o0);
            (Dequeue 40000000 None None 5 1000, mkOracle [(1%N, 13%N); (3%N, 14%N)] [] [] []);
            (Manage 40000100 MRequeueDead [RPlain 2%N], o0);
            (Stats 40000200, o0)] in
  agree_hist c init h
  /\ map (fun ev => map m_st (ev_after ev)) (model_trace Sql c h)
     = [[Queued; Queued; Queued]; [Leased; Leased; Queued]; [Queued; Leased; Queued]; [Queued; Dead; Queued];
        [Leased; Dead; Leased]; [Leased; Queued; Leased]; [Leased; Queued; Leased]].
Proof. vm_compute. repeat split; auto; left; discriminate. Qed.

Print Assumptions C13_flavour_free_operations_agree.
Print Assumptions C13_dequeue_agrees_when_sweeping.
Print Assumptions C13_enqueue_agrees_partial.
Print Assumptions C13_victims_equally_old_sql.
Print Assumptions C13_victims_equally_old_mem.
Print Assumptions C13_backend_constants_agree.
Print Assumptions C13_flavours_agree_along_history.
Print Assumptions C13_unlimited_queue_enqueues_agree.
