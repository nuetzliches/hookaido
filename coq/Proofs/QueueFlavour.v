(** C13 - where the two backend flavours of the model can differ at all. *)
From Coq Require Import List ZArith NArith Bool Lia.
From HK Require Import Model.Queue Proofs.QueueBase Proofs.QueueInvStep Proofs.QueueStep.
Import ListNotations.
Open Scope Z_scope.

(** what a Store call can observe of a state *)
Definition same_obs (a b : state) : Prop :=
  msgs a = msgs b /\ issued a = issued b /\ last_prune a = last_prune b.

Lemma same_obs_refl s : same_obs s s.
Proof. repeat split. Qed.

Lemma prune_same_obs c now hint a b : same_obs a b -> same_obs (prune c now hint a) (prune c now hint b).
Proof.
  intros [A [B Cc]]. unfold prune. rewrite A, Cc. destruct (prune_due c now (last_prune b)); simpl; repeat split; auto.
Qed.

(** operations that are written once for both backends: the model has no flavour split there *)
Definition flavour_free (x : op) : bool :=
  match x with
  | LeaseOp _ _ _ | LeaseBatch _ _ _ | Manage _ _ _ | ManageF _ _ _ | ListMessages _ _ _ | ListDead _ _ _ _
  | Lookup _ _ | Stats _ => true
  | _ => false
  end.

Theorem flavour_free_agree c x o sm ss :
  flavour_free x = true -> same_obs sm ss ->
  snd (step Mem c sm x o) = snd (step Sql c ss x o)
  /\ same_obs (fst (step Mem c sm x o)) (fst (step Sql c ss x o)).
Proof.
  intros Hf [A [B Cc]]. destruct x; simpl in Hf; try discriminate; cbn [step].
  - unfold step_lease. destruct (is_noop_extend k); [split; [reflexivity | repeat split; auto]|].
    destruct l; try (split; [reflexivity | repeat split; auto]). rewrite A.
    destruct (lease_one c now k l (msgs ss)) as [l' [|[|]]]; (split; [reflexivity | repeat split; auto]).
  - destruct (batch_kind_ok k); [|split; [reflexivity | repeat split; auto]]. unfold step_lease_batch. rewrite A.
    destruct (lease_batch c now _ ls (msgs ss)) as [[ms' n] cs]. split; [reflexivity | repeat split; auto].
  - unfold step_manage. rewrite A. split; [reflexivity | repeat split; auto].
  - destruct k; try (split; [reflexivity | repeat split; auto]); unfold step_manage_f; rewrite A;
      destruct (f_preview f); (split; [reflexivity | repeat split; auto]).
  - unfold step_list. pose proof (prune_same_obs c now (o_gone o) sm ss (conj A (conj B Cc))) as [P1 [P2 P3]].
    destruct ord; simpl; rewrite ?P1; (split; [reflexivity | repeat split; auto]).
  - unfold step_list_dead. pose proof (prune_same_obs c now (o_gone o) sm ss (conj A (conj B Cc))) as [P1 [P2 P3]].
    simpl. rewrite P1. split; [reflexivity | repeat split; auto].
  - unfold step_lookup. rewrite A. split; [reflexivity | repeat split; auto].
  - unfold step_stats. pose proof (prune_same_obs c now (o_gone o) sm ss (conj A (conj B Cc))) as [P1 [P2 P3]].
    simpl. rewrite P1. split; [reflexivity | repeat split; auto].
Qed.

Theorem dequeue_agree c now route target batch ttl o sm ss :
  same_obs sm ss -> sql_sweep_due now (last_sweep ss) = true ->
  snd (step_dequeue Mem c now route target batch ttl o sm) = snd (step_dequeue Sql c now route target batch ttl o ss)
  /\ same_obs (fst (step_dequeue Mem c now route target batch ttl o sm)) (fst (step_dequeue Sql c now route target batch ttl o ss)).
Proof.
  intros S Due. rewrite !step_dequeue_eq. cbv zeta.
  assert (P : same_obs (deq_pre Mem c now o sm) (deq_pre Sql c now o ss)).
  { unfold deq_pre. pose proof (prune_same_obs c now (o_gone o) sm ss S) as [P1 [P2 P3]].
    rewrite prune_last_sweep, Due. simpl. rewrite P1. repeat split; auto. }
  destruct P as [P1 [P2 P3]]. rewrite P1, P2.
  destruct (valid_pick now route target (clamp_batch batch) (msgs (deq_pre Sql c now o ss)) (issued (deq_pre Sql c now o ss)) (o_picked o));
    cbn [fst snd].
  - split; [reflexivity|]. unfold same_obs. cbn [msgs issued last_prune]. repeat split; auto.
  - split; [reflexivity|]. repeat split; auto.
Qed.

(** the admission rules only the memory store has (memory pressure, the delivered-retention term of
    the depth) do not fire *)
Definition mem_rules_off (c : cfg) (l : list msg) : Prop :=
  pressure c l = false /\ (c_deliv_age c <= 0 \/ c_max_depth c <= 0).

(** in that regime neither backend evicts: the pruned queue takes the [k] new messages as it is, or the
    enqueue is refused; the memory plan and SQLite's room computation are the same depth test *)
Definition fits (c : cfg) (k : Z) (l : list msg) : bool :=
  negb ((0 <? c_max_depth c) && (c_max_depth c <? active l + k)).

Lemma mem_plan_no_evict c k s l :
  c_drop_oldest c = false \/ c_max_depth c <= 0 -> c_deliv_age c <= 0 \/ c_max_depth c <= 0 ->
  mem_plan c k s l = if fits c k l then Some [] else None.
Proof.
  intros Hpol Hdel. unfold mem_plan, mem_full, fits. destruct (Z.leb_spec (c_max_depth c) 0) as [Ed | Ed].
  - rewrite (proj2 (Z.ltb_ge 0 _) Ed). reflexivity.
  - rewrite (proj2 (Z.ltb_lt 0 _) Ed), (proj2 (Z.ltb_ge 0 (c_deliv_age c))), orb_false_r by lia.
    destruct Hpol as [-> | Hp]; [|lia]. destruct (c_max_depth c <? active l + k); reflexivity.
Qed.

Lemma sql_room_no_evict c k hint s1 :
  c_drop_oldest c = false \/ c_max_depth c <= 0 ->
  enq_room Sql c k hint s1 = if fits c k (msgs s1) then Some (msgs s1) else None.
Proof.
  intros Hpol. unfold enq_room, fits. destruct (Z.ltb_spec 0 (c_max_depth c)) as [E0 | E0]; [|reflexivity].
  destruct Hpol as [-> | Hp]; [|lia]. destruct (c_max_depth c <? active (msgs s1) + k); reflexivity.
Qed.

Theorem enqueue_agree_reject c now single es o sm ss :
  (single = true -> length es = 1%nat) ->
  same_obs sm ss -> c_drop_oldest c = false \/ c_max_depth c <= 0 ->
  mem_rules_off c (msgs (prune c now (o_gone o) ss)) ->
  snd (step_enqueue Mem c now single es o sm) = snd (step_enqueue Sql c now single es o ss)
  /\ msgs (fst (step_enqueue Mem c now single es o sm)) = msgs (fst (step_enqueue Sql c now single es o ss))
  /\ issued (fst (step_enqueue Mem c now single es o sm)) = issued (fst (step_enqueue Sql c now single es o ss))
  /\ last_prune (fst (step_enqueue Mem c now single es o sm)) = last_prune (fst (step_enqueue Sql c now single es o ss)).
Proof.
  intros Hs S Hpol [Hpress Hdel]. unfold step_enqueue.
  destruct es as [|e0 es0]; [destruct S as [A [B Cc]]; repeat split; auto|]. set (es := e0 :: es0) in *.
  destruct (assign_ids es (o_genids o)) as [ies|] eqn:EA; [|destruct S as [A [B Cc]]; repeat split; auto].
  pose proof (prune_same_obs c now (o_gone o) sm ss S) as [P1 [P2 P3]].
  set (s1m := prune c now (o_gone o) sm) in *. set (s1s := prune c now (o_gone o) ss) in *.
  rewrite P1, (mem_plan_no_evict c _ s1m _ Hpol Hdel).
  match goal with |- context [match ?rm with Some l2 => _ | None => (s1s, RErr EFull) end] =>
    change rm with (enq_room Sql c (Z.of_nat (length ies)) (o_gone o) s1s) end.
  rewrite (sql_room_no_evict c _ _ s1s Hpol). set (l1 := msgs s1s) in *.
  destruct (fits c (Z.of_nat (length ies)) l1); [|simpl; repeat split; auto].
  rewrite Hpress, remove_nil.
  (* with no victim to excuse, both backends test the new ids against the same list *)
  assert (Fresh : forallb (fun i => negb (has_id i l1) || memN i []) (map fst ies) = forallb (fun i => negb (has_id i l1)) (map fst ies)).
  { induction (map fst ies) as [|i tl IHl]; [reflexivity|]. cbn [forallb]. rewrite IHl. unfold memN. cbn [existsb]. rewrite orb_false_r. reflexivity. }
  rewrite Fresh. destruct single.
  - (* a single message: the duplicate test, which the memory store skips, cannot fail *)
    assert (NDs : nodupN (map fst ies) = true).
    { pose proof (assign_ids_length _ _ _ EA) as Hlen. rewrite (Hs eq_refl) in Hlen.
      destruct ies as [|p1 [|p2 r]]; try discriminate Hlen. reflexivity. }
    rewrite NDs. simpl andb.
    destruct (forallb (fun i => negb (has_id i l1)) (map fst ies)); simpl; repeat split; auto.
  - destruct (nodupN (map fst ies) && forallb (fun i => negb (has_id i l1)) (map fst ies)); simpl; repeat split; auto.
Qed.
