(** C14, request layer: what the admin handlers and the MCP tools hand to the store, and what they
    answer (Model/ManageGlue.v), composed with the store theorems of Proofs/QueueManage.v. *)
From Coq Require Import List ZArith NArith Bool Lia.
From HK Require Import Model.Queue Model.QueueMon Model.Publish Model.ManageGlue Proofs.QueueBase
  Proofs.QueueInv Proofs.QueueManage.
Import ListNotations.
Open Scope Z_scope.

(** the trimmed non-blank ids of a raw list, in order *)
Definition trims (raw : list rid) : list N :=
  flat_map (fun r => match trimmed_id r with Some i => [i] | None => [] end) raw.

(** first-occurrence de-duplication *)
Fixpoint dedup_first (l : list N) (seen : list N) : list N :=
  match l with
  | [] => []
  | i :: tl => if memN i seen then dedup_first tl seen else i :: dedup_first tl (i :: seen)
  end.

Definition no_blank (raw : list rid) : Prop := forall r, In r raw -> trimmed_id r <> None.

(** does the raw list name id [i] (after trimming)? *)
Definition raw_names (raw : list rid) (i : N) : bool :=
  existsb (fun r => match trimmed_id r with Some j => N.eqb j i | None => false end) raw.

Lemma in_trims raw i : In i (trims raw) <-> exists r, In r raw /\ trimmed_id r = Some i.
Proof.
  unfold trims. rewrite in_flat_map. split; intros [r [Hr H]]; exists r; split; try exact Hr.
  - destruct (trimmed_id r) as [j|]; [|destruct H]. destruct H as [H | []]. subst. reflexivity.
  - rewrite H. left. reflexivity.
Qed.

Lemma raw_names_iff raw i : raw_names raw i = true <-> In i (trims raw).
Proof.
  rewrite in_trims. unfold raw_names. rewrite existsb_exists. split; intros [r [Hr H]]; exists r; split; try exact Hr.
  - destruct (trimmed_id r) as [j|]; [|discriminate]. apply N.eqb_eq in H. subst. reflexivity.
  - rewrite H. apply N.eqb_refl.
Qed.

Lemma no_blank_map (A : Type) (f : A -> rid) l : (forall a, trimmed_id (f a) <> None) -> no_blank (map f l).
Proof. intros H r Hr. apply in_map_iff in Hr. destruct Hr as [a [<- _]]. apply H. Qed.

Lemma dedup_first_In l : forall seen i, In i (dedup_first l seen) <-> In i l /\ ~ In i seen.
Proof.
  induction l as [|a tl IH]; intros seen i; simpl; [tauto|].
  destruct (memN a seen) eqn:E.
  - apply memN_In in E. rewrite IH. split; [tauto|]. intros [[<- | H1] H2]; [contradiction | tauto].
  - apply memN_false in E. simpl. rewrite IH. simpl. destruct (N.eq_dec a i) as [<- | Na]; tauto.
Qed.

Lemma dedup_first_NoDup l : forall seen, NoDup (dedup_first l seen).
Proof.
  induction l as [|a tl IH]; intros seen; simpl; [constructor|].
  destruct (memN a seen); [apply IH|]. constructor; [|apply IH].
  rewrite dedup_first_In. intros [_ H]. apply H. left. reflexivity.
Qed.

Lemma dedup_first_id l : forall seen, NoDup l -> (forall i, In i l -> ~ In i seen) -> dedup_first l seen = l.
Proof.
  induction l as [|a tl IH]; intros seen ND Hd; simpl; [reflexivity|].
  inversion ND as [|? ? Ha Htl]; subst.
  rewrite (proj2 (memN_false a seen) (Hd a (or_introl eq_refl))). f_equal.
  apply IH; [exact Htl|]. intros i Hi [<- | H]; [contradiction | apply (Hd i); [right; exact Hi | exact H]].
Qed.

Lemma dedup_trims_length raw : forall seen, (length (dedup_first (trims raw) seen) <= length raw)%nat.
Proof.
  induction raw as [|r tl IH]; intros seen; simpl; [lia|].
  destruct (trimmed_id r) as [i|]; simpl; [|specialize (IH seen); lia].
  destruct (memN i seen); simpl; [specialize (IH seen) | specialize (IH (i :: seen))]; lia.
Qed.

Lemma parsed_ids_In raw i : In i (dedup_first (trims raw) []) <-> exists r, In r raw /\ trimmed_id r = Some i.
Proof. rewrite dedup_first_In, in_trims. simpl. tauto. Qed.

Lemma memN_parsed_ids raw i : memN i (dedup_first (trims raw) []) = raw_names raw i.
Proof. apply eq_true_iff_eq. rewrite memN_In, raw_names_iff, dedup_first_In. simpl. tauto. Qed.

(** the store's own normalisation is the same function *)
Lemma norm_ids_dedup raw : forall seen, norm_ids raw seen = dedup_first (trims raw) seen.
Proof.
  induction raw as [|r tl IH]; intros seen; simpl; [reflexivity|].
  destruct r as [i | i |]; simpl; try (destruct (memN i seen); [apply IH | rewrite IH; reflexivity]). apply IH.
Qed.

Lemma trims_store_ids idl : trims (store_ids idl) = idl.
Proof. unfold store_ids, trims. induction idl as [|a tl IH]; simpl; [reflexivity | f_equal; exact IH]. Qed.

Lemma norm_store_ids idl : NoDup idl -> norm_ids (store_ids idl) [] = idl.
Proof. intros ND. rewrite norm_ids_dedup, trims_store_ids. apply dedup_first_id; [exact ND | intros i _ []]. Qed.

Lemma dedup_trim_cases raw : forall seen,
  (no_blank raw /\ dedup_trim raw seen = Some (dedup_first (trims raw) seen))
  \/ ((exists r, In r raw /\ trimmed_id r = None) /\ dedup_trim raw seen = None).
Proof.
  induction raw as [|r tl IH]; intros seen; simpl; [left; split; [intros r [] | reflexivity]|].
  destruct (trimmed_id r) as [i|] eqn:E; simpl.
  - (* the loop goes on with [seen], or with [i :: seen] if [i] is new *)
    destruct (IH (if memN i seen then seen else i :: seen)) as [[NB D] | [[x [Hx Ex]] D]].
    + left. split.
      * intros x [<- | Hx]; [congruence | exact (NB x Hx)].
      * revert D. destruct (memN i seen); intros ->; reflexivity.
    + right. split.
      * exists x. split; [right; exact Hx | exact Ex].
      * revert D. destruct (memN i seen); intros ->; reflexivity.
  - right. split; [exists r; split; [left; reflexivity | exact E] | reflexivity].
Qed.

(** parseManageIDs / parseIDs with cap [cap]: the request is accepted exactly when the raw list has 1..cap
    entries, none blank; the cap is on the raw list, before de-duplication *)
Lemma parse_ids_with_cases cap raw :
  (1 <= Z.of_nat (length raw) <= cap /\ no_blank raw /\ dedup_first (trims raw) [] <> []
   /\ parse_ids_with cap raw = Some (dedup_first (trims raw) []))
  \/ ((~ 1 <= Z.of_nat (length raw) <= cap \/ exists r, In r raw /\ trimmed_id r = None)
      /\ parse_ids_with cap raw = None).
Proof.
  unfold parse_ids_with.
  destruct (Z.eqb_spec (Z.of_nat (length raw)) 0) as [L0 | L0]; [right; split; [left; lia | reflexivity]|].
  destruct (Z.ltb_spec cap (Z.of_nat (length raw))) as [Lc | Lc]; [right; split; [left; lia | reflexivity]|].
  simpl. destruct (dedup_trim_cases raw []) as [[NB ->] | [B ->]]; [left | right; split; [right; exact B | reflexivity]].
  (* the result is not empty: it holds the first raw id *)
  assert (NE : dedup_first (trims raw) [] <> []).
  { destruct raw as [|r tl]; [contradiction L0; reflexivity|].
    destruct (trimmed_id r) as [i|] eqn:Ei; [|destruct (NB r (or_introl eq_refl) Ei)].
    intros E. apply (in_nil (a := i)). rewrite <- E. apply parsed_ids_In. exists r. split; [left; reflexivity | exact Ei]. }
  split; [lia|]. split; [exact NB|]. split; [exact NE|].
  destruct (dedup_first (trims raw) []); [contradiction | reflexivity].
Qed.

Lemma parse_ids_with_some cap raw idl :
  parse_ids_with cap raw = Some idl ->
  1 <= Z.of_nat (length raw) <= cap /\ no_blank raw /\ idl = dedup_first (trims raw) [] /\ idl <> [].
Proof.
  destruct (parse_ids_with_cases cap raw) as [[R [NB [NE ->]]] | [_ ->]]; [|discriminate].
  intros [= <-]. auto.
Qed.

Lemma parse_ids_with_accepts cap raw :
  1 <= Z.of_nat (length raw) <= cap -> no_blank raw -> parse_ids_with cap raw = Some (dedup_first (trims raw) []).
Proof.
  intros R NB. destruct (parse_ids_with_cases cap raw) as [[_ [_ [_ E]]] | [[NR | [r [Hr Er]]] _]];
    [exact E | contradiction | destruct (NB r Hr Er)].
Qed.

Lemma parse_ids_with_long cap raw : cap < Z.of_nat (length raw) -> parse_ids_with cap raw = None.
Proof. intros L. destruct (parse_ids_with_cases cap raw) as [[R _] | [_ E]]; [lia | exact E]. Qed.

Lemma parse_ids_with_reparse cap raw idl :
  parse_ids_with cap raw = Some idl -> parse_ids_with cap (store_ids idl) = Some idl.
Proof.
  intros P. destruct (parse_ids_with_some _ _ _ P) as [R [_ [E NE]]].
  assert (L : 1 <= Z.of_nat (length (store_ids idl)) <= cap).
  { unfold store_ids. rewrite map_length. pose proof (dedup_trims_length raw []) as Ll. rewrite <- E in Ll.
    destruct idl; [contradiction | simpl length in *; lia]. }
  rewrite (parse_ids_with_accepts _ _ L); [|apply no_blank_map; discriminate].
  rewrite trims_store_ids, E. f_equal. apply dedup_first_id; [apply dedup_first_NoDup | intros i _ []].
Qed.

Theorem ids_selection_exact now k raw idl s s' r :
  Inv s -> parse_manage_ids raw = Some idl -> step_manage now k (store_ids idl) s = (s', r) ->
  let sel m := raw_names raw (m_id m) && allowed_from k (m_st m) in
  (forall m, In m (msgs s) -> find_id (m_id m) (msgs s') = if sel m then manage_effect now k m else Some m)
  /\ incl (ids (msgs s')) (ids (msgs s))
  /\ exists n matched, r = RCount n matched false /\ n = Z.of_nat (length (filter sel (msgs s))).
Proof.
  intros I P H. cbv zeta. destruct (parse_ids_with_some _ _ _ P) as [_ [_ [-> _]]].
  destruct (manage_by_ids_exact now k _ s s' r I H) as [Hf [Hi [n [mt [Er En]]]]].
  rewrite norm_store_ids in Hf, En by apply dedup_first_NoDup. split; [|split].
  - intros m Hm. rewrite (Hf m Hm), memN_parsed_ids. reflexivity.
  - exact Hi.
  - exists n, mt. split; [exact Er|]. rewrite En. f_equal. f_equal. apply filter_ext. intros m.
    rewrite memN_parsed_ids. reflexivity.
Qed.

Theorem ids_endpoint_states_spec k s : st_in s (ids_endpoint_states k) = allowed_from k s.
Proof. destruct k; destruct s; reflexivity. Qed.

Theorem filter_endpoint_states_spec k s : st_in s (filter_endpoint_states k) = allowed_from (fk_kind k) s.
Proof. destruct k; destruct s; reflexivity. Qed.

Theorem mcp_ids_tool_states_spec k s : st_in s (mcp_ids_tool_states k) = allowed_from k s.
Proof. destruct k; destruct s; reflexivity. Qed.

Theorem mcp_filter_tool_states_spec k s : st_in s (mcp_filter_tool_states k) = allowed_from (fk_kind k) s.
Proof. destruct k; destruct s; reflexivity. Qed.

Lemma ids_states_same k : ids_endpoint_states k = mcp_ids_tool_states k.
Proof. destruct k; reflexivity. Qed.

Lemma filter_states_same k : mcp_filter_tool_states k = filter_endpoint_states k.
Proof. destruct k; reflexivity. Qed.

(** what was decided, read off the answer *)
Lemma serve_inv now d s s' r :
  serve now d s = (s', r) ->
  match r with
  | HErr st c => d = DReject st c /\ s' = s
  | HIdsOk _ => exists k idl, d = DCall (SCIds k idl)
  | HFilterOk _ _ _ => exists k f, d = DCall (SCFilter k f)
  end.
Proof.
  destruct d as [st c | [k idl | k f]]; simpl.
  - intros [= <- <-]. split; reflexivity.
  - intros [= <- <-]. eauto.
  - unfold step_manage_f. destruct (f_preview f); intros [= <- <-]; eauto.
Qed.

(** and conversely a decision to refuse is answered with exactly that status and code *)
Theorem reject_is_answered now st c s : serve now (DReject st c) s = (s, HErr st c).
Proof. reflexivity. Qed.

(** the limit the admin endpoints promise: absent / 0 -> 100, otherwise min(limit, 1000) *)
Definition norm_limit (raw : Z) : Z := if raw =? 0 then 100 else Z.min raw 1000.

Lemma norm_limit_range raw : 0 <= raw -> 1 <= norm_limit raw <= 1000.
Proof. unfold norm_limit. destruct (Z.eqb_spec raw 0); lia. Qed.

Theorem admin_limit_spec raw :
  (raw < 0 -> admin_limit raw = None) /\ (0 <= raw -> admin_limit raw = Some (norm_limit raw)).
Proof.
  unfold admin_limit, norm_limit, admin_default_list_limit, admin_max_list_limit.
  destruct (Z.eqb_spec raw 0) as [-> | N0]; [split; [lia | reflexivity]|].
  destruct (Z.ltb_spec raw 0); [split; [reflexivity | lia]|].
  split; [lia|]. intros _. f_equal. destruct (Z.ltb_spec 1000 raw); lia.
Qed.

Lemma admin_limit_some raw lim : admin_limit raw = Some lim -> 0 <= raw /\ lim = norm_limit raw.
Proof.
  destruct (admin_limit_spec raw) as [Hn Hp].
  destruct (Z.lt_ge_cases raw 0) as [L | L]; [rewrite (Hn L); discriminate | rewrite (Hp L); intros [= <-]; auto].
Qed.

Lemma admin_limit_in_range l : 1 <= l <= 1000 -> admin_limit l = Some l.
Proof.
  intros R. rewrite (proj2 (admin_limit_spec l)) by lia. unfold norm_limit.
  destruct (Z.eqb_spec l 0); [lia | f_equal; lia].
Qed.

Definition mcp_norm_limit (l : mlimit) : Z := match l with MLAbsent => 100 | MLInt n => n | MLBad => 0 end.

(** the MCP tools refuse 0, negative and > 1000 instead of defaulting / clamping *)
Theorem mcp_limit_spec l lim :
  mcp_limit l = Some lim <->
  (l = MLAbsent /\ lim = 100) \/ (exists n, l = MLInt n /\ 1 <= n <= 1000 /\ lim = n).
Proof.
  unfold mcp_limit, mcp_default_list_limit, mcp_max_list_limit. split.
  - destruct l as [| n |]; [intros [= <-]; left; split; reflexivity | | discriminate].
    destruct (Z.leb_spec n 0); [discriminate|]. destruct (Z.ltb_spec 1000 n); [discriminate|].
    intros [= <-]. right. exists n. repeat split; lia.
  - intros [[-> ->] | [n [-> [R ->]]]]; [reflexivity|].
    destruct (Z.leb_spec n 0); [lia|]. destruct (Z.ltb_spec 1000 n); [lia | reflexivity].
Qed.

Lemma mcp_limit_reaches_store l lim : mcp_limit l = Some lim -> lim = mcp_norm_limit l /\ eff_limit lim = lim /\ 1 <= lim <= 1000.
Proof.
  intros H. apply mcp_limit_spec in H.
  assert (R : lim = mcp_norm_limit l /\ 1 <= lim <= 1000) by (destruct H as [[-> ->] | [n [-> [R ->]]]]; simpl; lia).
  split; [apply R|]. split; [apply eff_limit_fixed|]; apply R.
Qed.

Lemma parse_state_some allowed src o :
  parse_state allowed src = Some o ->
  match src with RsBlank => o = None | RsKnown x => o = Some x /\ st_in x allowed = true | RsUnknown => False end.
Proof.
  destruct src as [| x |]; simpl; [intros [= <-]; reflexivity | | discriminate].
  destruct (st_in x allowed); [intros [= <-]; auto | discriminate].
Qed.

Lemma parse_state_outside allowed x : st_in x allowed = false -> parse_state allowed (RsKnown x) = None.
Proof. intros H. simpl. rewrite H. reflexivity. Qed.

Lemma parse_state_reparse allowed src o :
  parse_state allowed src = Some o ->
  parse_state allowed (match o with Some s => RsKnown s | None => RsBlank end) = Some o.
Proof.
  intros H. apply parse_state_some in H. destruct src as [| x |]; [subst o; reflexivity | | destruct H].
  destruct H as [-> H]. simpl. rewrite H. reflexivity.
Qed.

Lemma parse_filter_some allowed b p :
  parse_filter allowed b = Some p ->
  0 <= fb_limit b /\ pf_limit p = norm_limit (fb_limit b)
  /\ parse_state allowed (fb_state b) = Some (pf_state p) /\ time_of (fb_before b) = Some (pf_before p)
  /\ pf_route p = trim_route (fb_route b) /\ pf_target p = trimmed_id (fb_target b)
  /\ pf_preview p = fb_preview b /\ pf_app p = fb_app b /\ pf_ep p = fb_ep b.
Proof.
  unfold parse_filter. intros H.
  destruct (admin_limit (fb_limit b)) as [lim|] eqn:El; [|discriminate].
  destruct (parse_state allowed (fb_state b)) as [stt|]; [|discriminate].
  destruct (time_of (fb_before b)) as [bf|]; [|discriminate].
  injection H as <-. simpl. destruct (admin_limit_some _ _ El) as [L ->]. repeat split; assumption.
Qed.

Theorem parse_filter_refuses allowed b :
  (fb_limit b < 0 -> parse_filter allowed b = None)
  /\ (fb_state b = RsUnknown -> parse_filter allowed b = None)
  /\ (forall x, fb_state b = RsKnown x -> st_in x allowed = false -> parse_filter allowed b = None)
  /\ (fb_before b = TBad -> parse_filter allowed b = None).
Proof.
  unfold parse_filter. repeat split.
  - intros H. rewrite (proj1 (admin_limit_spec _) H). reflexivity.
  - intros ->. destruct (admin_limit (fb_limit b)); reflexivity.
  - intros x -> Hx. rewrite (parse_state_outside _ _ Hx). destruct (admin_limit (fb_limit b)); reflexivity.
  - intros ->. destruct (admin_limit (fb_limit b)); [|reflexivity]. destruct (parse_state allowed (fb_state b)); reflexivity.
Qed.

(** what a parsed filter means at the store, for an endpoint whose state set [allowed] is the operation's *)
Lemma store_filt_ok k allowed (route : option N) p src :
  (forall s, st_in s allowed = allowed_from k s) ->
  parse_state allowed src = Some (pf_state p) -> 1 <= pf_limit p <= 1000 ->
  let f := mk_store_filt route p in
  eff_limit (f_limit f) = pf_limit p
  /\ match src with
     | RsBlank => f_state f = None
     | RsKnown x => f_state f = Some x /\ allowed_from k x = true
     | RsUnknown => False
     end
  /\ forall l,
       filter_select k f l
       = map m_id (firstn (Z.to_nat (pf_limit p))
                          (sort_by m_recv false (filter (fun m => filt_match f m && allowed_from k (m_st m)) l)))
       /\ Z.of_nat (length (filter_select k f l)) <= pf_limit p
       /\ (forall i, In i (filter_select k f l) ->
             exists m, In m l /\ m_id m = i /\ filt_match f m = true /\ allowed_from k (m_st m) = true).
Proof.
  intros Hall Hs R. cbv zeta. apply parse_state_some in Hs.
  assert (El : eff_limit (f_limit (mk_store_filt route p)) = pf_limit p) by (apply eff_limit_fixed; exact R).
  split; [exact El|]. split.
  - destruct src as [| x |]; try exact Hs. rewrite <- Hall. exact Hs.
  - intros l. destruct (filter_select_spec k (mk_store_filt route p) l) as [H1 [_ [_ [_ [H5 H6]]]]].
    rewrite <- El. split; [apply H1 | split; [exact H5 | exact H6]]. simpl.
    destruct src as [| x |]; [rewrite Hs; reflexivity | | destruct Hs].
    destruct Hs as [-> Hx]. rewrite <- Hall. exact Hx.
Qed.

(** for [H : <decision> = DCall c]: walks down the decision, closing every branch that refuses *)
Ltac split_match H :=
  repeat match type of H with
         | context [match ?x with _ => _ end] => destruct x eqn:?; try discriminate
         end.

Lemma gate_pass q d : h_auth q = true -> h_post q = true -> gate q d = d.
Proof. intros Ha Hp. unfold gate. rewrite Ha, Hp. reflexivity. Qed.

Lemma gate_call q d c : gate q d = DCall c -> d = DCall c.
Proof. unfold gate. destruct (h_auth q); [|discriminate]. destruct (h_post q); [|discriminate]. auto. Qed.

Lemma decide_ids_call x k q body ms c :
  decide_ids x k q body ms = DCall c ->
  exists raw idl, body = IBIds raw /\ parse_manage_ids raw = Some idl /\ c = SCIds k (store_ids idl).
Proof.
  unfold decide_ids. intros H. apply gate_call in H.
  destruct (parse_audit x (h_audit q)) as [[[rs ac] rq]|]; [|discriminate].
  destruct body as [|raw]; [discriminate|].
  destruct (parse_manage_ids raw) as [idl|] eqn:P; [|discriminate].
  exists raw, idl. split; [reflexivity|]. split; [exact P|]. split_match H; injection H as <-; reflexivity.
Qed.

Lemma decide_ids_reject_status x k q body ms st c : decide_ids x k q body ms = DReject st c -> st <> 200.
Proof. unfold decide_ids, gate. intros H. split_match H; injection H as <- _; discriminate. Qed.

Lemma decide_filter_call x k q body c :
  decide_filter x k q body = DCall c ->
  exists b p route, body = FBOk b /\ parse_filter (filter_endpoint_states k) b = Some p
                    /\ c = SCFilter k (mk_store_filt route p).
Proof.
  unfold decide_filter. intros H. apply gate_call in H.
  destruct body as [|b]; [discriminate|].
  destruct (parse_filter (filter_endpoint_states k) b) as [p|] eqn:P; [|discriminate].
  (* the route is the trimmed one of the body, or none *)
  split_match H; injection H as <-; eauto 7.
Qed.

Lemma decide_scoped_filter_call x k app ep q body c :
  decide_scoped_filter x k app ep q body = DCall c ->
  exists a e rt b p, app = LValid a /\ ep = LValid e /\ find_endpoint x a e = Some rt
                     /\ body = FBOk b /\ parse_filter (filter_endpoint_states k) b = Some p
                     /\ c = SCFilter k (mk_store_filt (Some (r_path rt)) p).
Proof.
  unfold decide_scoped_filter. intros H.
  destruct (h_auth q); [|discriminate].
  destruct app as [| |a]; try (destruct ep; discriminate). destruct ep as [| |e]; try discriminate.
  destruct (h_post q); [|discriminate]. simpl in H.
  destruct (find_endpoint x a e) as [rt|] eqn:F; [|discriminate].
  destruct body as [|b]; [discriminate|].
  destruct (parse_filter (filter_endpoint_states k) b) as [p|] eqn:P; [|discriminate].
  split_match H. injection H as <-.
  exists a, e, rt, b, p. repeat split; assumption.
Qed.

Lemma mcp_parse_filter_some allowed a p :
  mcp_parse_filter allowed a = Some p ->
  mf_unknown a = false /\ mf_wf a = true
  /\ mcp_limit (mf_limit a) = Some (pf_limit p)
  /\ parse_state allowed (mf_state a) = Some (pf_state p) /\ time_of (mf_before a) = Some (pf_before p)
  /\ pf_route p = trim_route (mf_route a) /\ pf_route p <> RSNoSlash /\ pf_target p = trimmed_id (mf_target a)
  /\ pf_preview p = mf_preview a /\ pf_app p = mf_app a /\ pf_ep p = mf_ep a.
Proof.
  unfold mcp_parse_filter. intros H.
  destruct (mf_unknown a); [discriminate|]. destruct (mf_wf a); [|discriminate]. simpl in H.
  destruct (time_of (mf_before a)) as [bf|]; [|discriminate].
  destruct (parse_state allowed (mf_state a)) as [stt|]; [|discriminate].
  destruct (mcp_limit (mf_limit a)) as [lim|]; [|discriminate].
  destruct (trim_route (mf_route a)) eqn:Er; try discriminate.
  all: split_match H; injection H as <-; simpl; repeat split; discriminate.
Qed.

Lemma mcp_decide_filter_call e k a c :
  mcp_decide_filter e k a = DCall c ->
  exists p route, mcp_parse_filter (mcp_filter_tool_states k) a = Some p /\ c = SCFilter k (mk_store_filt route p).
Proof.
  unfold mcp_decide_filter. intros H.
  destruct (me_gate e); [|discriminate].
  destruct (parse_maudit (mf_audit a)) as [rq|]; [|discriminate].
  destruct (mcp_parse_filter (mcp_filter_tool_states k) a) as [p|] eqn:P; [|discriminate].
  simpl in H. split_match H; injection H as <-; eauto.
Qed.

Lemma mcp_decide_ids_call e k a ms c :
  mcp_decide_ids e k a ms = DCall c ->
  me_gate e = true /\ mi_unknown a = false /\ parse_maudit (mi_audit a) <> None
  /\ exists raw idl, mi_ids a = IBIds raw /\ parse_manage_ids raw = Some idl /\ c = SCIds k (store_ids idl).
Proof.
  unfold mcp_decide_ids. intros H.
  destruct (me_gate e); [|discriminate]. split; [reflexivity|].
  destruct (mi_unknown a); [discriminate|]. split; [reflexivity|].
  destruct (parse_maudit (mi_audit a)) as [rq|]; [|discriminate]. split; [discriminate|].
  destruct (mi_ids a) as [|raw]; [discriminate|].
  destruct (mcp_parse_ids raw) as [idl|] eqn:P; [|discriminate].
  exists raw, idl. split; [reflexivity|]. split; [exact P|].
  simpl in H. split_match H; injection H as <-; reflexivity.
Qed.

(** the filter [f] handed to the store is what the body [b] of an admin by-filter request asks for
    (Properties/C14admin.v, (c), says it in words) *)
Definition filter_call_ok (k : fkind) (b : fbody) (f : filt) : Prop :=
  0 <= fb_limit b
  /\ f_limit f = norm_limit (fb_limit b) /\ eff_limit (f_limit f) = norm_limit (fb_limit b)
  /\ 1 <= norm_limit (fb_limit b) <= 1000
  /\ match fb_state b with
     | RsBlank => f_state f = None
     | RsKnown x => f_state f = Some x /\ allowed_from (fk_kind k) x = true
     | RsUnknown => False
     end
  /\ f_target f = trimmed_id (fb_target b) /\ f_preview f = fb_preview b /\ time_of (fb_before b) = Some (f_before f)
  /\ forall l,
       filter_select (fk_kind k) f l
       = map m_id (firstn (Z.to_nat (norm_limit (fb_limit b)))
                          (sort_by m_recv false (filter (fun m => filt_match f m && allowed_from (fk_kind k) (m_st m)) l)))
       /\ Z.of_nat (length (filter_select (fk_kind k) f l)) <= norm_limit (fb_limit b)
       /\ (forall i, In i (filter_select (fk_kind k) f l) ->
             exists m, In m l /\ m_id m = i /\ filt_match f m = true /\ allowed_from (fk_kind k) (m_st m) = true).

Lemma parsed_filter_call_ok k b p route :
  parse_filter (filter_endpoint_states k) b = Some p -> filter_call_ok k b (mk_store_filt route p).
Proof.
  intros P. destruct (parse_filter_some _ _ _ P) as [L [El [Es [Eb [_ [Et [Ep _]]]]]]].
  pose proof (norm_limit_range _ L) as R. rewrite <- El in R.
  destruct (store_filt_ok (fk_kind k) _ route p _ (filter_endpoint_states_spec k) Es R) as [Ef [Hst Hsel]].
  unfold filter_call_ok. rewrite <- El.
  split; [exact L|]. split; [reflexivity|]. split; [exact Ef|]. split; [exact R|]. split; [exact Hst|].
  split; [exact Et|]. split; [exact Ep|]. split; [exact Eb | exact Hsel].
Qed.

Theorem mcp_filter_bad_request_refused e k a :
  mcp_parse_filter (mcp_filter_tool_states k) a = None -> mcp_decide_filter e k a = mreject.
Proof.
  intros P. unfold mcp_decide_filter. rewrite P. destruct (me_gate e); simpl; [|reflexivity].
  destruct (parse_maudit (mf_audit a)); reflexivity.
Qed.

(** a state outside the endpoint's set, an unknown state, a negative limit or an unparsable cursor is
    refused with 400 invalid_body - never a silently empty (or wider) selection *)
Theorem filter_bad_request_400 x k q b :
  h_auth q = true -> h_post q = true ->
  parse_filter (filter_endpoint_states k) b = None ->
  decide_filter x k q (FBOk b) = DReject 400 (GPub CInvalidBody).
Proof. intros Ha Hp P. unfold decide_filter. rewrite (gate_pass _ _ Ha Hp), P. reflexivity. Qed.

Definition changed_count (before after : list msg) : Z :=
  Z.of_nat (length (filter (fun m => negb (opt_msg_eqb (find_id (m_id m) after) (Some m))) before)).

Lemma apply_manage_count_changed now k idl s :
  Inv s ->
  Z.of_nat (length (selected k idl (msgs s))) = changed_count (msgs s) (apply_pm (pm_manage now k idl) (msgs s)).
Proof.
  intros I. unfold changed_count, selected. f_equal. f_equal. apply filter_ext_in. intros m Hm.
  rewrite find_id_apply_pm_In; [|apply pm_manage_id_pres | apply I | exact Hm]. symmetry. apply pm_manage_changes.
Qed.

Theorem response_counts_ids now k idl s s' n :
  Inv s -> serve now (DCall (SCIds k idl)) s = (s', HIdsOk n) ->
  (exists matched, step_manage now k idl s = (s', RCount n matched false))
  /\ n = changed_count (msgs s) (msgs s').
Proof.
  intros I. simpl. intros [= <- <-]. split; [eexists; reflexivity|]. apply apply_manage_count_changed. exact I.
Qed.

Theorem response_counts_filter now k f s s' m n p :
  Inv s -> serve now (DCall (SCFilter k f)) s = (s', HFilterOk m n p) ->
  step_manage_f now (fk_kind k) f s = (s', RCount n m p)
  /\ p = f_preview f
  /\ m = Z.of_nat (length (filter_select (fk_kind k) f (msgs s)))
  /\ (if p then s' = s /\ n = 0 else n = m /\ n = changed_count (msgs s) (msgs s')).
Proof.
  intros I. pose proof (filter_count_is_matched now (fk_kind k) f s I) as Hc.
  simpl. unfold step_manage_f in *. destruct (f_preview f); intros [= <- <- <- <-].
  - repeat split; reflexivity.
  - destruct (Hc eq_refl) as [c [= Hn Hm]]. repeat split; try reflexivity; [congruence|].
    apply apply_manage_count_changed. exact I.
Qed.

Definition ex_ctx : ctx :=
  mkCtx true true true true true false false [] [] 0 0
        [mkRoute 1%N [1000%N] true true true true 0 0 None;
         mkRoute 5%N [1000%N] true true true true 0 0 (Some (1%N, 2%N))].

Definition ex_msg (i r : N) (s : st) (recv : Z) : msg := mkMsg i r 1000%N s recv 0 recv i 0%N 0%N 0%N None 0.
Definition ex_pop : list msg :=
  [ex_msg 1 1 Queued 50; ex_msg 2 1 Dead 50; ex_msg 3 1 Canceled 60; ex_msg 4 1 Delivered 60; ex_msg 5 1 Queued 60].

Definition ex_q : hreq := mkHReq true true (mkAudit [119%N; 104%N; 121%N] [] []).

Example ex_ids_accept :
  parse_manage_ids [RPadded 3; RPlain 1; RPlain 3; RPadded 1; RPlain 9] = Some [3%N; 1%N; 9%N].
Proof. vm_compute. reflexivity. Qed.

Example ex_ids_blank_rejected : parse_manage_ids [RPlain 1; RBlank] = None /\ parse_manage_ids [] = None.
Proof. vm_compute. split; reflexivity. Qed.

Example ex_ids_cap :
  parse_manage_ids (map (fun n => RPlain (N.of_nat n)) (seq 1 1000)) <> None
  /\ parse_manage_ids (map (fun n => RPlain (N.of_nat n)) (seq 1 1001)) = None
  /\ parse_manage_ids (map (fun n => RPlain 7) (seq 1 1001)) = None.     (* the cap is on the raw list, before de-duplication *)
Proof.
  (* only the lengths are computed, not the requests *)
  unfold parse_manage_ids, admin_max_list_limit. split; [|split].
  - rewrite parse_ids_with_accepts; [discriminate | rewrite map_length, seq_length; lia | apply no_blank_map; discriminate].
  - apply parse_ids_with_long. rewrite map_length, seq_length. reflexivity.
  - apply parse_ids_with_long. rewrite map_length, seq_length. reflexivity.
Qed.

Example ex_cancel_by_ids :
  let '(s', r) := admin_request ex_ctx 100 (EpIds MCancel) ex_q (BIds (IBIds [RPadded 2; RPlain 4; RPlain 1; RPlain 2; RPlain 77])) (state_of ex_pop) in
  (r, map (fun m => (m_id m, m_st m)) (msgs s'))
  = (HIdsOk 2, [(1%N, Canceled); (2%N, Canceled); (3%N, Canceled); (4%N, Delivered); (5%N, Queued)]).
Proof. vm_compute. reflexivity. Qed.

Example ex_filter_limit_and_state :
  let body lim stt := BFilter (FBOk (mkFBody RtBlank LBlank LBlank RBlank stt TAbsent lim false)) in
  snd (admin_request ex_ctx 100 (EpFilter FCancel) ex_q (body 1 (RsKnown Queued)) (state_of ex_pop)) = HErr 400 (GPub CManagedSelectorRequired)
  /\ snd (admin_request ex_ctx 100 (EpFilter FCancel) ex_q (BFilter (FBOk (mkFBody (RtPadded 1) LBlank LBlank RBlank (RsKnown Queued) TAbsent 1 false))) (state_of ex_pop))
     = HFilterOk 1 1 false
  /\ snd (admin_request ex_ctx 100 (EpFilter FCancel) ex_q (BFilter (FBOk (mkFBody (RtPlain 1) LBlank LBlank RBlank (RsKnown Canceled) TAbsent 1 false))) (state_of ex_pop))
     = HErr 400 (GPub CInvalidBody)
  /\ snd (admin_request ex_ctx 100 (EpFilter FCancel) ex_q (BFilter (FBOk (mkFBody (RtPlain 1) LBlank LBlank RBlank RsBlank TAbsent (-1) false))) (state_of ex_pop))
     = HErr 400 (GPub CInvalidBody)
  /\ admin_request ex_ctx 100 (EpFilter FCancel) ex_q (BFilter (FBOk (mkFBody (RtPlain 1) LBlank LBlank RBlank RsBlank TAbsent 0 true))) (state_of ex_pop)
     = (state_of ex_pop, HFilterOk 3 0 true).
Proof. vm_compute. repeat split; reflexivity. Qed.

Example ex_missing_reason :
  snd (admin_request ex_ctx 100 (EpIds MDeleteDead) (mkHReq true true (mkAudit [] [] [])) (BIds (IBIds [RPlain 2])) (state_of ex_pop))
  = HErr 400 (GPub CAuditReason).
Proof. vm_compute. reflexivity. Qed.

Example ex_mcp_limit :
  let e := mkMEnv true [111%N; 112%N; 115%N] None in
  let a lim := mkMF false true (mkMA true true true []) RtBlank LBlank LBlank RBlank RsBlank TAbsent lim false in
  snd (mcp_request e 0 (MtFilter FCancel (a (MLInt 0))) (state_of ex_pop)) = HErr 0 GToolError
  /\ snd (mcp_request e 0 (MtFilter FCancel (a (MLInt 1001))) (state_of ex_pop)) = HErr 0 GToolError
  /\ snd (mcp_request e 0 (MtFilter FCancel (a MLAbsent)) (state_of ex_pop)) = HFilterOk 3 3 false
  /\ snd (mcp_request e 0 (MtFilter FCancel (a (MLInt 2))) (state_of ex_pop)) = HFilterOk 2 2 false.
Proof. vm_compute. repeat split; reflexivity. Qed.
