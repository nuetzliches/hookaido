(** Lemmas about Model/Headers.v (C07). *)
From Coq Require Import List NArith ZArith Bool Lia.
From Coq Require String.
From HK Require Import Model.Headers Proofs.ListFacts.
Import ListNotations.
Open Scope N_scope.

Lemma beq_eq : forall a b, beq a b = true <-> a = b.
Proof.
  induction a as [|x a IH]; destruct b as [|y b]; simpl; try (split; congruence).
  rewrite andb_true_iff, N.eqb_eq, IH. split.
  - intros [-> ->]. reflexivity.
  - intros E. inversion E. auto.
Qed.

Lemma beq_refl : forall a, beq a a = true.
Proof. intros. apply beq_eq. reflexivity. Qed.

Lemma beq_neq : forall a b, beq a b = false <-> a <> b.
Proof. intros. rewrite <- not_true_iff_false, beq_eq. reflexivity. Qed.

Lemma beq_sym : forall a b, beq a b = beq b a.
Proof. intros. apply eq_true_iff_eq. rewrite !beq_eq. split; congruence. Qed.

Lemma is_nil_spec : forall a, is_nil a = true <-> a = [].
Proof. destruct a; simpl; split; congruence. Qed.

Lemma in_range_iff : forall lo hi c, in_range lo hi c = true <-> lo <= c <= hi.
Proof. intros. unfold in_range. rewrite andb_true_iff, !N.leb_le. reflexivity. Qed.

(** 'a'..'z' and 'A'..'Z' are disjoint intervals, 32 apart *)
Lemma lower_to_upper : forall c, is_lower c = true -> is_upper (c - 32) = true.
Proof. intros c H. apply in_range_iff in H. apply in_range_iff. lia. Qed.

Lemma upper_to_lower : forall c, is_upper c = true -> is_lower (c + 32) = true.
Proof. intros c H. apply in_range_iff in H. apply in_range_iff. lia. Qed.

Lemma upper_not_lower : forall c, is_upper c = true -> is_lower c = false.
Proof.
  intros c H. apply in_range_iff in H. apply not_true_is_false. intros L. apply in_range_iff in L. lia.
Qed.

Lemma lower_not_upper : forall c, is_lower c = true -> is_upper c = false.
Proof.
  intros c H. apply not_true_is_false. intros U. apply upper_not_lower in U. congruence.
Qed.

(** [canon_char true] moves the lower-case letters onto upper-case ones and fixes the rest;
    [canon_char false] is [to_lower], the other way round *)
Lemma canon_char_idem : forall u c, canon_char u (canon_char u c) = canon_char u c.
Proof.
  intros [|] c; unfold canon_char; simpl.
  - destruct (is_lower c) eqn:L.
    + rewrite (upper_not_lower _ (lower_to_upper _ L)). reflexivity.
    + rewrite L. reflexivity.
  - destruct (is_upper c) eqn:U.
    + rewrite (lower_not_upper _ (upper_to_lower _ U)). reflexivity.
    + rewrite U. reflexivity.
Qed.

Lemma to_lower_canon_char : forall u c, to_lower (canon_char u c) = to_lower c.
Proof.
  intros [|] c.
  - unfold canon_char, to_lower. simpl. destruct (is_lower c) eqn:L; [|reflexivity].
    rewrite (lower_to_upper _ L), (lower_not_upper _ L). apply in_range_iff in L. lia.
  - apply (canon_char_idem false).
Qed.

Lemma is_token_letter : forall c, is_lower c = true \/ is_upper c = true -> is_token c = true.
Proof. intros c [H | H]; unfold is_token; rewrite H, orb_true_r; reflexivity. Qed.

Lemma is_token_canon_char : forall u c, is_token c = true -> is_token (canon_char u c) = true.
Proof.
  intros u c H. unfold canon_char.
  destruct (u && is_lower c) eqn:E1; [|destruct (negb u && is_upper c) eqn:E2; [|exact H]].
  - apply andb_true_iff in E1. apply is_token_letter. right. apply lower_to_upper. tauto.
  - apply andb_true_iff in E2. apply is_token_letter. left. apply upper_to_lower. tauto.
Qed.

Lemma canon_go_idem : forall s u, canon_go u (canon_go u s) = canon_go u s.
Proof.
  induction s; intros u; simpl; auto.
  rewrite canon_char_idem. f_equal. apply IHs.
Qed.

Lemma canon_go_token : forall s u, forallb is_token s = true -> forallb is_token (canon_go u s) = true.
Proof.
  induction s; intros u H; simpl in *; auto.
  apply andb_true_iff in H. destruct H as [H1 H2].
  rewrite is_token_canon_char by auto. simpl. apply IHs. auto.
Qed.

Theorem canon_key_idempotent : forall s, canon_key (canon_key s) = canon_key s.
Proof.
  intros s. unfold canon_key. destruct (forallb is_token s) eqn:E.
  - rewrite canon_go_token by auto. apply canon_go_idem.
  - rewrite E. reflexivity.
Qed.

Lemma lower_canon_go : forall s u, lower (canon_go u s) = lower s.
Proof.
  induction s; intros u; simpl; auto.
  rewrite to_lower_canon_char. f_equal. apply IHs.
Qed.

Lemma lower_canon_key : forall s, lower (canon_key s) = lower s.
Proof. intros s. unfold canon_key. destruct (forallb is_token s); auto. apply lower_canon_go. Qed.

Lemma stripped_canon_key : forall k, stripped (canon_key k) = stripped k.
Proof. intros k. unfold stripped. rewrite lower_canon_key. reflexivity. Qed.

Lemma canon_go_length : forall s u, length (canon_go u s) = length s.
Proof. induction s; intros; simpl; auto. Qed.

Lemma canon_key_length : forall s, length (canon_key s) = length s.
Proof. intros. unfold canon_key. destruct (forallb is_token s); auto. apply canon_go_length. Qed.

Lemma canon_key_nil : forall s, canon_key s = [] <-> s = [].
Proof.
  intros s. split; intros H.
  - apply length_zero_iff_nil. rewrite <- canon_key_length. rewrite H. reflexivity.
  - subst. reflexivity.
Qed.

Lemma stripped_spec : forall k, stripped k = true <-> In (lower k) stripped_names.
Proof.
  intros k. unfold stripped. rewrite existsb_exists. split.
  - intros [x [Hin Hb]]. apply beq_eq in Hb. subst. auto.
  - intros H. exists (lower k). split; auto. apply beq_refl.
Qed.

Lemma mget_mset : forall m k k' v, mget k (mset k' v m) = if beq k k' then Some v else mget k m.
Proof.
  induction m as [|[k0 v0] tl IH]; intros; simpl.
  - destruct (beq k k'); reflexivity.
  - destruct (beq k' k0) eqn:E; simpl.
    + apply beq_eq in E. subst. destruct (beq k k0); reflexivity.
    + destruct (beq k k0) eqn:E2.
      * apply beq_eq in E2. subst. rewrite beq_sym. rewrite E. reflexivity.
      * apply IH.
Qed.

Lemma mget_in : forall m k v, mget k m = Some v -> In (k, v) m.
Proof.
  induction m as [|[k0 v0] tl IH]; intros k v H; simpl in *; try discriminate.
  destruct (beq k k0) eqn:E.
  - apply beq_eq in E. inversion H; subst. auto.
  - right. auto.
Qed.

Lemma mget_keys : forall m k, In k (map fst m) <-> exists v, mget k m = Some v.
Proof.
  induction m as [|[k0 v0] tl IH]; intros k; simpl.
  - split; [tauto | intros [v H]; discriminate].
  - destruct (beq k k0) eqn:E.
    + apply beq_eq in E. subst. split; eauto.
    + apply beq_neq in E. rewrite <- IH. split; intros H; [destruct H; [congruence | auto] | auto].
Qed.

Lemma hget_none : forall h k, ~ In k (map fst h) -> hget k h = None.
Proof.
  induction h as [|[k0 vs] tl IH]; intros k H; simpl in *; auto.
  destruct (beq k k0) eqn:E.
  - apply beq_eq in E. subst. tauto.
  - apply IH. tauto.
Qed.

Lemma extra_fold_default : forall k extra r,
  fold_left (extra_upd k) extra r =
  match fold_left (extra_upd k) extra None with Some v => Some v | None => r end.
Proof.
  induction extra as [|e tl IH]; intros r; simpl; auto.
  rewrite IH. rewrite (IH (extra_upd k None e)).
  destruct (fold_left (extra_upd k) tl None); auto.
  unfold extra_upd. destruct (negb (is_nil (canon_key (trim_space (fst e)))) && beq k (canon_key (trim_space (fst e)))); auto.
Qed.

(** appendHeaderExtras: the last extra naming a key wins *)
Lemma extras_get : forall extra acc k,
  mget k (append_extras acc extra) =
  match extra_lookup k extra with Some v => Some v | None => mget k acc end.
Proof.
  unfold append_extras, extra_lookup.
  induction extra as [|e tl IH]; intros acc k; simpl; auto.
  rewrite IH. rewrite (extra_fold_default k tl (extra_upd k None e)).
  destruct (fold_left (extra_upd k) tl None); auto.
  unfold extra_step, extra_upd.
  destruct (is_nil (canon_key (trim_space (fst e)))) eqn:En; simpl; auto.
  rewrite mget_mset. destruct (beq k (canon_key (trim_space (fst e)))); auto.
Qed.

Lemma extra_lookup_spec : forall k extra,
  match extra_lookup k extra with
  | Some v => exists e, In e extra /\ snd e = v /\ canon_key (trim_space (fst e)) = k /\ k <> []
  | None => forall e, In e extra -> canon_key (trim_space (fst e)) = k -> k = []
  end.
Proof.
  unfold extra_lookup. intros k extra. induction extra as [|e tl IH] using rev_ind; simpl; [contradiction|].
  rewrite fold_left_app. simpl. unfold extra_upd at 1.
  destruct (negb (is_nil (canon_key (trim_space (fst e)))) && beq k (canon_key (trim_space (fst e)))) eqn:E.
  - apply andb_true_iff in E. destruct E as [E1 E2]. apply beq_eq in E2.
    exists e. repeat split; auto.
    + apply in_or_app. right. left. reflexivity.
    + intros Hn. rewrite <- E2, Hn in E1. discriminate.
  - destruct (fold_left (extra_upd k) tl None) as [v|].
    + destruct IH as [e1 [Hin H]]. exists e1. split; auto. apply in_or_app. auto.
    + intros e0 Hin Hk. apply in_app_or in Hin. destruct Hin as [Hin | [Hin | []]]; [eauto|].
      subst e0. rewrite Hk, beq_refl, andb_true_r in E. apply negb_false_iff in E.
      apply is_nil_spec. auto.
Qed.

Lemma copy_base_stripped : forall h acc k, stripped k = true ->
  mget k (fold_left copy_step h acc) = mget k acc.
Proof.
  induction h as [|[k0 vs] tl IH]; intros acc k Hs; simpl; auto.
  rewrite IH by exact Hs. unfold copy_step. simpl.
  destruct (stripped k0) eqn:Es; auto.
  rewrite mget_mset. destruct (beq k (canon_key k0)) eqn:E; auto.
  apply beq_eq in E. subst k. rewrite stripped_canon_key in Hs. congruence.
Qed.

Lemma copy_headers_ok_inv : forall h max extra out,
  copy_headers h max extra = CopyOk out ->
  ((max <= 0)%Z /\ h = [] /\ extra = [] /\ out = []) \/
  ((0 < max)%Z /\ out = append_extras (copy_base h) extra /\ (kv_size out <= max)%Z).
Proof.
  intros h max extra out H. unfold copy_headers in H.
  destruct (Z.leb_spec max 0).
  - left. destruct h; destruct extra; try discriminate. inversion H. auto.
  - right. destruct (Z.ltb_spec max (kv_size (append_extras (copy_base h) extra))); try discriminate.
    inversion H; subst. auto.
Qed.

(** Authorization / Proxy-Authorization / Cookie received at ingress are never stored:
    a stripped key in the stored map can only be a configured forward-auth extra, and then
    its value is the auth service's, not the received one. *)
Theorem stripped_never_stored : forall h max extra out k v,
  copy_headers h max extra = CopyOk out ->
  mget k out = Some v -> stripped k = true ->
  exists e, In e extra /\ snd e = v /\ canon_key (trim_space (fst e)) = k.
Proof.
  intros h max extra out k v Hc Hg Hs.
  apply copy_headers_ok_inv in Hc. destruct Hc as [[_ [_ [_ ->]]] | [_ [-> _]]]; [discriminate|].
  rewrite extras_get in Hg. pose proof (extra_lookup_spec k extra) as Hx.
  destruct (extra_lookup k extra) as [v'|].
  - inversion Hg; subst v'. destruct Hx as [e [Hin [Hv [Hk _]]]]. eauto.
  - unfold copy_base in Hg. rewrite copy_base_stripped in Hg by exact Hs. discriminate Hg.
Qed.

(** the values received under names that canonicalise to [k], in wire order;
    [wire_values n] is [vals (canon_key n)] *)
Definition vals (k : bytes) (w : list (bytes * bytes)) : list bytes :=
  map snd (filter (fun p => beq (canon_key (fst p)) k) w).

Lemma hget_hadd : forall h k k' v,
  hget k (hadd k' v h) =
  if beq k k' then Some (match hget k' h with Some vs => vs ++ [v] | None => [v] end) else hget k h.
Proof.
  induction h as [|[k0 vs] tl IH]; intros; simpl.
  - destruct (beq k k'); reflexivity.
  - destruct (beq k' k0) eqn:E; simpl.
    + apply beq_eq in E. subst. destruct (beq k k0); reflexivity.
    + destruct (beq k k0) eqn:E2.
      * apply beq_eq in E2. subst. rewrite beq_sym, E. reflexivity.
      * apply IH.
Qed.

(** [group] started from any header [h0] *)
Lemma hget_group_from : forall w h0 k,
  hget k (fold_left (fun h p => hadd (canon_key (fst p)) (snd p) h) w h0) =
  match hget k h0 with
  | Some vs => Some (vs ++ vals k w)
  | None => match vals k w with [] => None | l => Some l end
  end.
Proof.
  induction w as [|[n v] tl IH]; intros h0 k; simpl.
  - destruct (hget k h0); auto. rewrite app_nil_r. reflexivity.
  - rewrite IH. rewrite hget_hadd. unfold vals. simpl.
    rewrite (beq_sym (canon_key n) k).
    destruct (beq k (canon_key n)) eqn:E; simpl.
    + apply beq_eq in E. subst k. destruct (hget (canon_key n) h0).
      * rewrite <- app_assoc. reflexivity.
      * reflexivity.
    + reflexivity.
Qed.

Lemma hget_group : forall w k,
  hget k (group w) = match vals k w with [] => None | l => Some l end.
Proof. intros. exact (hget_group_from w [] k). Qed.

Definition keys_ok (h : hdr) : Prop :=
  NoDup (map fst h) /\ Forall (fun k => canon_key k = k) (map fst h).

Lemma hadd_keys : forall h k v, map fst (hadd k v h) = map fst h \/ (~ In k (map fst h) /\ map fst (hadd k v h) = map fst h ++ [k]).
Proof.
  induction h as [|[k0 vs] tl IH]; intros; simpl.
  - right. auto.
  - destruct (beq k k0) eqn:E; simpl; auto.
    apply beq_neq in E. destruct (IH k v) as [H | [H1 H2]].
    + left. rewrite H. reflexivity.
    + right. split; [intros [Hx | Hx]; [congruence | contradiction] | rewrite H2; reflexivity].
Qed.

Lemma keys_ok_hadd : forall h k v, keys_ok h -> canon_key k = k -> keys_ok (hadd k v h).
Proof.
  intros h k v [Hnd Hc] Hk. unfold keys_ok. destruct (hadd_keys h k v) as [H | [Hn H]]; rewrite H; auto.
  split.
  - apply NoDup_snoc; auto.
  - apply Forall_app. split; auto.
Qed.

Lemma keys_ok_group_from : forall w h0, keys_ok h0 ->
  keys_ok (fold_left (fun h p => hadd (canon_key (fst p)) (snd p) h) w h0).
Proof.
  induction w as [|[n v] tl IH]; intros h0 H; simpl; auto.
  apply IH. apply keys_ok_hadd; auto. apply canon_key_idempotent.
Qed.

Lemma keys_ok_group : forall w, keys_ok (group w).
Proof. intros. apply keys_ok_group_from. split; constructor. Qed.

Lemma group_nil : forall w, group w = [] -> w = [].
Proof.
  intros [|[n v] tl] H; auto.
  (* the first line's key is found in the grouped header *)
  apply (f_equal (hget (canon_key n))) in H. rewrite hget_group in H.
  unfold vals in H. simpl in H. rewrite beq_refl in H. discriminate H.
Qed.

Lemma vals_nonempty : forall k w, vals k w <> [] <-> exists n, In n (map fst w) /\ canon_key n = k.
Proof.
  intros k w. unfold vals. induction w as [|[n v] tl IH]; simpl.
  - split; [congruence | intros [n [[] _]]].
  - destruct (beq (canon_key n) k) eqn:E; simpl.
    + apply beq_eq in E. split; [eauto | discriminate].
    + rewrite IH. apply beq_neq in E. split.
      * intros [n' [Hin Hk]]. eauto.
      * intros [n' [[<- | Hin] Hk]]; [contradiction | eauto].
Qed.

Lemma received_key : forall w k,
  stripped k = false /\ vals k w <> [] <->
  exists n, In n (map fst w) /\ stripped n = false /\ canon_key n = k.
Proof.
  intros. rewrite vals_nonempty. split.
  - intros [Hs [n [Hin Hk]]]. exists n. rewrite <- stripped_canon_key, Hk. auto.
  - intros [n [Hin [Hs Hk]]]. rewrite <- Hk, stripped_canon_key. eauto.
Qed.

Lemma copy_base_get : forall h acc k, keys_ok h ->
  mget k (fold_left copy_step h acc) =
  match hget k h with
  | Some vs => if stripped k then mget k acc else Some (join_comma vs)
  | None => mget k acc
  end.
Proof.
  induction h as [|[k0 vs] tl IH]; intros acc k [Hnd Hc]; simpl; auto.
  simpl in Hnd, Hc. inversion Hnd as [|? ? Hnotin Hnd']; subst. inversion Hc as [|? ? Hk0 Hc']; subst.
  rewrite IH by (split; auto).
  unfold copy_step at 1 2. simpl.
  destruct (beq k k0) eqn:E.
  - apply beq_eq in E. subst k. rewrite (hget_none tl k0 Hnotin).
    destruct (stripped k0); auto. rewrite mget_mset, Hk0, beq_refl. reflexivity.
  - assert (mget k (if stripped k0 then acc else mset (canon_key k0) (join_comma vs) acc) = mget k acc) as ->.
    { destruct (stripped k0); auto. rewrite mget_mset, Hk0, E. reflexivity. }
    reflexivity.
Qed.

(** what is stored under each key, for the header lines net/http accepted *)
Lemma copy_headers_get : forall w extra k,
  mget k (append_extras (copy_base (group w)) extra) =
  match extra_lookup k extra with
  | Some v => Some v
  | None => if stripped k then None
            else match vals k w with [] => None | l => Some (join_comma l) end
  end.
Proof.
  intros w extra k. rewrite extras_get. destruct (extra_lookup k extra); auto.
  unfold copy_base. rewrite copy_base_get by apply keys_ok_group.
  rewrite hget_group. simpl. destruct (vals k w); auto. destruct (stripped k); auto.
Qed.

(** The stored map, for the header lines net/http accepted ([w], in wire order): under the
    canonical form of every non-stripped received name stands the comma-join of all values
    received under names that canonicalise to it, in order; configured forward-auth extras
    override; the key set is exactly these; the size limit holds. *)
Theorem copy_headers_spec : forall w max extra out,
  copy_headers (group w) max extra = CopyOk out ->
  (forall n, stripped n = false -> extra_lookup (canon_key n) extra = None ->
     mget (canon_key n) out =
     match wire_values n w with [] => None | vs => Some (join_comma vs) end)
  /\ (forall k v, extra_lookup k extra = Some v -> mget k out = Some v)
  /\ (forall k, In k (map fst out) <->
        (exists n, In n (map fst w) /\ stripped n = false /\ canon_key n = k)
        \/ (exists e, In e extra /\ canon_key (trim_space (fst e)) = k /\ k <> []))
  /\ ((0 < max)%Z -> (kv_size out <= max)%Z).
Proof.
  intros w max extra out Hc.
  apply copy_headers_ok_inv in Hc. destruct Hc as [[Hm [Hg [He Ho]]] | [Hm [Ho Hsz]]].
  - (* max <= 0: only a request without header lines and without extras passes, nothing stored *)
    apply group_nil in Hg. subst. split; [|split; [|split]].
    + intros. simpl. reflexivity.
    + intros k v H. discriminate.
    + intros k. simpl. split; [tauto|].
      intros [[n [[] _]] | [e [[] _]]].
    + lia.
  - assert (Hget := copy_headers_get w extra). rewrite <- Ho in Hget.
    split; [|split; [|split]].
    + intros n Hs Hx. rewrite Hget, Hx. rewrite stripped_canon_key, Hs. reflexivity.
    + intros k v Hx. rewrite Hget, Hx. reflexivity.
    + intros k. rewrite mget_keys, Hget. pose proof (extra_lookup_spec k extra) as Hx.
      destruct (extra_lookup k extra) as [v|].
      * destruct Hx as [e [Hin [_ [Hk Hn]]]]. split; [intros _; right; exists e; auto | eauto].
      * rewrite <- received_key. split.
        -- intros [v Hv]. left. destruct (stripped k); [discriminate|].
           destruct (vals k w); [discriminate|]. split; [reflexivity | discriminate].
        -- intros [[Hs Hv] | [e [Hin [Hk Hn]]]]; [|exfalso; eauto].
           rewrite Hs. destruct (vals k w); [congruence | eauto].
    + auto.
Qed.

(** push delivery (classifyDelivery): the body sent is the stored payload *)
Lemma delivery_body_id : forall p, delivery_body p = p.
Proof. reflexivity. Qed.

Import String.StringSyntax.
Local Open Scope string_scope.
Example copy_headers_example :
  copy_headers (group [(bs "x-a", bs "1"); (bs "COOKIE", bs "s"); (bs "X-A", bs "2, 3"); (bs "authorization", bs "t")]) 100
               [(bs "cookie", bs "from-auth")]
  = CopyOk [(bs "X-A", bs "1,2, 3"); (bs "Cookie", bs "from-auth")].
Proof. vm_compute. reflexivity. Qed.

Example copy_headers_reject_example :
  copy_headers (group [(bs "x-a", bs "12345")]) 7 [] = CopyReject.
Proof. vm_compute. reflexivity. Qed.
