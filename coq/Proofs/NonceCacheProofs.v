(** The nonce cache of Model/NonceCache.v: every operation is a filter or a cons on an association list, so [lookup] after it
    is read off [lookup_filter]; what an admission keeps ([admit_keeps]) and what its answer [true] means ([admit_true]). *)
From Coq Require Import ZArith List Bool NArith Lia.
From HK Require Import Model.NonceCache.
Import ListNotations.
Open Scope Z_scope.

Lemma beqb_refl a : beqb a a = true.
Proof. unfold beqb. destruct (bytes_eq_dec a a); congruence. Qed.

Lemma beqb_eq a b : beqb a b = true <-> a = b.
Proof. unfold beqb. destruct (bytes_eq_dec a b); split; congruence. Qed.

Lemma beqb_neq a b : beqb a b = false <-> a <> b.
Proof. unfold beqb. destruct (bytes_eq_dec a b); split; congruence. Qed.

(** Go's [!now.After(exp)] *)
Lemma not_after_iff now e : negb (now >? e) = true <-> now <= e.
Proof. rewrite negb_true_iff, Z.gtb_ltb. apply Z.ltb_ge. Qed.

(** [lookup] behind a [filter] ([cleanup] and [remove_key] are filters): a key whose entry passes
    the filter is read as before, and an entry that is read has passed it. *)
Lemma lookup_filter (p : bytes * Z -> bool) n c :
  (forall e, lookup n c = Some e -> p (n, e) = true) -> lookup n (filter p c) = lookup n c.
Proof.
  induction c as [|[k v] tl IH]; simpl; intros H; [reflexivity|].
  destruct (beqb n k) eqn:E.
  - apply beqb_eq in E. subst k. rewrite (H v eq_refl). simpl. rewrite beqb_refl. reflexivity.
  - destruct (p (k, v)); simpl; [rewrite E|]; apply IH; exact H.
Qed.

Lemma lookup_filter_some (p : bytes * Z -> bool) n c e :
  lookup n (filter p c) = Some e -> p (n, e) = true.
Proof.
  induction c as [|[k v] tl IH]; simpl; [discriminate|].
  destruct (p (k, v)) eqn:P; simpl; [|exact IH].
  destruct (beqb n k) eqn:E; [|exact IH].
  apply beqb_eq in E. subst k. intros H. injection H as <-. exact P.
Qed.

Lemma lookup_cleanup_keep now n c e :
  lookup n c = Some e -> now <= e -> lookup n (cleanup now c) = Some e.
Proof.
  intros H Hle. unfold cleanup. rewrite lookup_filter; [exact H|].
  intros e' H'. rewrite H in H'. injection H' as <-. apply not_after_iff. exact Hle.
Qed.

Lemma lookup_cleanup_some now n c e :
  lookup n (cleanup now c) = Some e -> now <= e.
Proof. intros H. apply lookup_filter_some in H. apply not_after_iff in H. exact H. Qed.

Lemma lookup_remove_other n k c : n <> k -> lookup n (remove_key k c) = lookup n c.
Proof.
  intros Hne. apply lookup_filter. intros e _.
  apply negb_true_iff, beqb_neq. cbn [fst]. congruence.
Qed.

Lemma lookup_remove_same k c : lookup k (remove_key k c) = None.
Proof.
  destruct (lookup k (remove_key k c)) as [e|] eqn:L; [|reflexivity].
  apply lookup_filter_some in L. cbn [fst] in L. rewrite beqb_refl in L. discriminate L.
Qed.

Lemma lookup_set_same k e c : lookup k (set_key k e c) = Some e.
Proof. unfold set_key. simpl. rewrite beqb_refl. reflexivity. Qed.

Lemma lookup_set_other n k e c : n <> k -> lookup n (set_key k e c) = lookup n c.
Proof.
  intros Hne. unfold set_key. simpl.
  destruct (beqb n k) eqn:E; [apply beqb_eq in E; congruence | apply lookup_remove_other; exact Hne].
Qed.

Lemma lookup_extend n by_ c : lookup n (extend by_ c) = option_map (fun e => e + by_) (lookup n c).
Proof.
  induction c as [|[k v] tl IH]; simpl; [reflexivity|].
  destruct (beqb n k); [reflexivity | exact IH].
Qed.

(** seenOnceLocked.  After the clean-up an entry that is found has not expired, so the second half
    of Go's test [ok && !now.After(exp)] never fails: the nonce is new exactly when the cleaned cache
    has no entry for it. *)
Lemma seen_once_locked_eq n x now c :
  n <> [] ->
  seen_once_locked n x now c =
  match lookup n (cleanup now c) with
  | Some _ => (false, cleanup now c)
  | None => (true, set_key n x (cleanup now c))
  end.
Proof.
  intros Hn. unfold seen_once_locked. destruct n as [|b tl]; [contradiction|].
  destruct (lookup (b :: tl) (cleanup now c)) as [e|] eqn:L; [|reflexivity].
  apply lookup_cleanup_some, not_after_iff in L. rewrite L. reflexivity.
Qed.

Lemma seen_keeps n e n' x now c :
  lookup n c = Some e -> now <= e ->
  lookup n (snd (seen_once_locked n' x now c)) = Some e /\
  (n' = n -> fst (seen_once_locked n' x now c) = false).
Proof.
  intros H Hle. destruct (bytes_eq_dec n' []) as [->|Hn'].
  - split; [exact H | reflexivity].
  - pose proof (lookup_cleanup_keep now n c e H Hle) as Hc.
    rewrite seen_once_locked_eq by exact Hn'.
    destruct (lookup n' (cleanup now c)) eqn:L; cbn [fst snd].
    + split; [exact Hc | reflexivity].
    + assert (Hne : n <> n') by congruence.
      rewrite lookup_set_other by exact Hne. split; [exact Hc | congruence].
Qed.

Lemma seen_true n x now c :
  fst (seen_once_locked n x now c) = true ->
  n <> [] /\ lookup n (snd (seen_once_locked n x now c)) = Some x /\
  (forall e, lookup n c = Some e -> e < now).
Proof.
  intros Ht.
  assert (Hn : n <> []) by (intros ->; discriminate Ht).
  split; [exact Hn|]. split.
  - rewrite seen_once_locked_eq in * by exact Hn.
    destruct (lookup n (cleanup now c)); [discriminate Ht | apply lookup_set_same].
  - intros e He. destruct (Z.lt_ge_cases e now) as [|Hge]; [assumption|].
    destruct (seen_keeps n e n x now c He Hge) as [_ Hf].
    rewrite Hf in Ht by reflexivity. discriminate Ht.
Qed.

Lemma cache_admit_cases n t tol now c :
  (0 < tol /\ (now - t < - tol \/ tol < now - t) /\ cache_admit n t tol now c = (false, c)) \/
  ((0 < tol -> - tol <= now - t <= tol) /\
   cache_admit n t tol now c = seen_once_locked n (t + tol) now c).
Proof.
  unfold cache_admit.
  destruct (Z.ltb_spec 0 tol) as [Hp|Hp]; cbn [andb]; [|right; split; [lia | reflexivity]].
  destruct (Z.ltb_spec (now - t) (- tol)) as [Hl|Hl]; cbn [orb]; [left; auto|].
  destruct (Z.ltb_spec tol (now - t)) as [Hr|Hr]; [left; auto|].
  right. split; [lia | reflexivity].
Qed.

Lemma admit_out_of_window n t tol now c :
  0 < tol -> (now - t < - tol \/ tol < now - t) -> cache_admit n t tol now c = (false, c).
Proof.
  intros Hp Hw. destruct (cache_admit_cases n t tol now c) as [(_ & _ & E)|[Hin _]]; [exact E | lia].
Qed.

Lemma admit_keeps n e n' t tol now c :
  lookup n c = Some e -> now <= e ->
  lookup n (snd (cache_admit n' t tol now c)) = Some e /\
  (n' = n -> fst (cache_admit n' t tol now c) = false).
Proof.
  intros H Hle. destruct (cache_admit_cases n' t tol now c) as [(_ & _ & ->)|[_ ->]].
  - split; [exact H | reflexivity].
  - apply seen_keeps; assumption.
Qed.

Lemma admit_true n t tol now c :
  fst (cache_admit n t tol now c) = true ->
  n <> [] /\ (0 < tol -> - tol <= now - t <= tol) /\
  lookup n (snd (cache_admit n t tol now c)) = Some (t + tol) /\
  (forall e, lookup n c = Some e -> e < now).
Proof.
  destruct (cache_admit_cases n t tol now c) as [(_ & _ & ->)|[Hin ->]]; [discriminate|].
  intros Ht. apply seen_true in Ht. tauto.
Qed.

Lemma inherit_keeps n e ptol c new_tol t1 :
  lookup n c = Some e -> t1 + ptol <= e ->
  exists e', lookup n (inherit_nonces new_tol (Some (ptol, c))) = Some e' /\ t1 + new_tol <= e'.
Proof.
  intros H Hle. unfold inherit_nonces.
  destruct (Z.gtb_spec (new_tol - ptol) 0).
  - exists (e + (new_tol - ptol)). rewrite lookup_extend, H. split; [reflexivity | lia].
  - exists e. split; [exact H | lia].
Qed.
