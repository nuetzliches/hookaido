(** Every operation of the model changes the stored list by [apply_pm pm] for some per-message
    function [pm : msg -> option msg] ([None] = the message is removed); a successful enqueue then
    appends.  How [apply_pm] acts on ids and lookups, and that no per-message function of the model
    alters the immutable fields. *)
From Coq Require Import List ZArith NArith Bool.
From HK Require Import Model.Queue Model.QueueMon Proofs.ListFacts.
Import ListNotations.
Open Scope Z_scope.

Definition ids (l : list msg) : list N := map m_id l.

Definition id_pres (pm : msg -> option msg) : Prop :=
  forall m m', pm m = Some m' -> m_id m' = m_id m.

(** the fields no operation may alter *)
Definition same_imm (a b : msg) : Prop :=
  m_id a = m_id b /\ m_route a = m_route b /\ m_target a = m_target b /\ m_recv a = m_recv b
  /\ m_body a = m_body b /\ m_hdr a = m_hdr b /\ m_trace a = m_trace b.

Definition imm_pres (pm : msg -> option msg) : Prop :=
  forall m m', pm m = Some m' -> same_imm m m'.

Lemma same_imm_refl m : same_imm m m.
Proof. repeat split. Qed.

Lemma same_imm_trans a b c : same_imm a b -> same_imm b c -> same_imm a c.
Proof. unfold same_imm; intuition congruence. Qed.

Lemma imm_pres_id_pres pm : imm_pres pm -> id_pres pm.
Proof. intros H m m' E. destruct (H m m' E) as [E1 _]. congruence. Qed.

Lemma upd_same_imm m s n r l u a : same_imm m (upd m s n r l u a).
Proof. repeat split. Qed.

Lemma release_same_imm now m : same_imm m (release now m).
Proof. apply upd_same_imm. Qed.

Lemma st_eqb_eq a b : st_eqb a b = true <-> a = b.
Proof. destruct a, b; simpl; split; intros H; congruence. Qed.

Lemma is_leased_st m : is_leased m = true -> m_st m = Leased.
Proof. apply st_eqb_eq. Qed.

Lemma queuedb_st m : queuedb m = true -> m_st m = Queued.
Proof. apply st_eqb_eq. Qed.

Lemma expired_st now m : expired now m = true -> m_st m = Leased /\ m_until m <= now.
Proof.
  unfold expired. rewrite andb_true_iff, Z.leb_le. intros [A B]. split; [apply is_leased_st; exact A | exact B].
Qed.

Lemma ready_st now route target m : ready now route target m = true -> m_st m = Queued /\ m_next m <= now.
Proof.
  unfold ready. rewrite !andb_true_iff, Z.leb_le. intros [[[A _] _] B]. split; [apply queuedb_st; exact A | exact B].
Qed.

Lemma optN_eqb_refl a : optN_eqb a a = true.
Proof. destruct a; simpl; [apply N.eqb_refl | reflexivity]. Qed.

Lemma same_imm_imm_eq a b : same_imm a b -> imm_eq a b = true.
Proof.
  intros [A [B [Cc [D [E [F G]]]]]]. unfold imm_eq. rewrite A, B, Cc, D, E, F, G.
  rewrite !N.eqb_refl, Z.eqb_refl. reflexivity.
Qed.

Lemma imm_eq_refl m : imm_eq m m = true.
Proof. apply same_imm_imm_eq, same_imm_refl. Qed.

Lemma msg_eqb_refl m : msg_eqb m m = true.
Proof.
  unfold msg_eqb. rewrite imm_eq_refl, (proj2 (st_eqb_eq _ _) eq_refl), !Z.eqb_refl, N.eqb_refl, optN_eqb_refl.
  reflexivity.
Qed.

Lemma opt_msg_eqb_refl a : opt_msg_eqb a a = true.
Proof. destruct a; simpl; [apply msg_eqb_refl | reflexivity]. Qed.

Lemma memN_In x l : memN x l = true <-> In x l.
Proof.
  unfold memN. rewrite existsb_exists. split.
  - intros [y [Hy E]]. apply N.eqb_eq in E. subst. exact Hy.
  - intros H. exists x. split; [exact H | apply N.eqb_refl].
Qed.

Lemma memN_false x l : memN x l = false <-> ~ In x l.
Proof. rewrite <- memN_In. symmetry. apply not_true_iff_false. Qed.

Lemma nodupN_NoDup l : nodupN l = true <-> NoDup l.
Proof.
  induction l as [|x tl IH]; simpl.
  - split; intros; [constructor | reflexivity].
  - rewrite andb_true_iff, negb_true_iff, memN_false, IH. split.
    + intros [A B]. constructor; assumption.
    + intros H. inversion H; subst. split; assumption.
Qed.

Lemma apply_pm_In pm l m' :
  In m' (apply_pm pm l) <-> exists m, In m l /\ pm m = Some m'.
Proof.
  induction l as [|x tl IH]; simpl.
  - split; [tauto | intros [m [[] _]]].
  - destruct (pm x) as [x'|] eqn:E; simpl; rewrite IH; split.
    + intros [H | [m [Hm Hp]]]; [exists x; subst; auto | exists m; auto].
    + intros [m [[Hm | Hm] Hp]]; [subst; left; congruence | right; exists m; auto].
    + intros [m [Hm Hp]]; exists m; auto.
    + intros [m [[Hm | Hm] Hp]]; [subst; congruence | exists m; auto].
Qed.

Lemma apply_pm_app pm l1 l2 : apply_pm pm (l1 ++ l2) = apply_pm pm l1 ++ apply_pm pm l2.
Proof.
  induction l1 as [|x tl IH]; simpl; [reflexivity|].
  destruct (pm x); simpl; rewrite IH; reflexivity.
Qed.

Definition pm_comp (f g : msg -> option msg) (m : msg) : option msg :=
  match f m with Some m' => g m' | None => None end.

Lemma apply_pm_comp f g l : apply_pm g (apply_pm f l) = apply_pm (pm_comp f g) l.
Proof.
  induction l as [|x tl IH]; simpl; [reflexivity|].
  unfold pm_comp at 1. destruct (f x) as [x'|]; simpl; [destruct (g x')|]; rewrite IH; reflexivity.
Qed.

Lemma apply_pm_ext f g l : (forall m, In m l -> f m = g m) -> apply_pm f l = apply_pm g l.
Proof.
  induction l as [|x tl IH]; simpl; intros H; [reflexivity|].
  rewrite (H x (or_introl eq_refl)), IH; [reflexivity|]. intros m Hm. apply H. right. exact Hm.
Qed.

Lemma apply_pm_id l : apply_pm (fun m => Some m) l = l.
Proof. induction l as [|x tl IH]; simpl; [reflexivity | rewrite IH; reflexivity]. Qed.

Lemma filter_apply_pm_length P pm l :
  length (filter P (apply_pm pm l))
  = length (filter (fun m => match pm m with Some m' => P m' | None => false end) l).
Proof.
  induction l as [|x tl IH]; [reflexivity|]. cbn [apply_pm filter].
  destruct (pm x) as [x'|]; [|exact IH]. cbn [filter]. destruct (P x'); cbn [length]; rewrite IH; reflexivity.
Qed.

Lemma apply_pm_ids_incl_on pm l :
  (forall x x', In x l -> pm x = Some x' -> m_id x' = m_id x) -> incl (ids (apply_pm pm l)) (ids l).
Proof.
  intros P i Hi. unfold ids in *. apply in_map_iff in Hi. destruct Hi as [m' [E Hm']].
  apply apply_pm_In in Hm'. destruct Hm' as [m [Hm Hp]]. apply in_map_iff. exists m. split; [|exact Hm].
  rewrite <- E. symmetry. apply (P m m' Hm Hp).
Qed.

Lemma apply_pm_NoDup_on pm l :
  (forall x x', In x l -> pm x = Some x' -> m_id x' = m_id x) -> NoDup (ids l) -> NoDup (ids (apply_pm pm l)).
Proof.
  induction l as [|x tl IH]; simpl; intros P ND; [constructor|].
  inversion ND as [|? ? Hx Htl]; subst.
  assert (Ptl : forall y y', In y tl -> pm y = Some y' -> m_id y' = m_id y) by (intros; apply P; [right|]; assumption).
  destruct (pm x) as [x'|] eqn:E; simpl; [|apply IH; assumption].
  constructor; [|apply IH; assumption].
  intros Hin. apply Hx. rewrite (P x x' (or_introl eq_refl) E) in Hin. apply (apply_pm_ids_incl_on pm tl Ptl). exact Hin.
Qed.

Lemma apply_pm_ids_incl pm l : id_pres pm -> incl (ids (apply_pm pm l)) (ids l).
Proof. intros P. apply apply_pm_ids_incl_on. intros x x' _. apply P. Qed.

Lemma filter_ids_NoDup (p : msg -> bool) l : NoDup (ids l) -> NoDup (ids (filter p l)).
Proof.
  induction l as [|a tl IH]; simpl; intros ND; [constructor|]. inversion ND as [|? ? Ha Htl]; subst.
  destruct (p a); simpl; [constructor|]; try (apply IH; exact Htl).
  intros Hin. apply Ha. unfold ids in *. apply in_map_iff in Hin. destruct Hin as [y [Ey Hy]]. apply filter_In in Hy.
  apply in_map_iff. exists y. split; [exact Ey | apply Hy].
Qed.

Lemma find_id_Some i l m : find_id i l = Some m -> In m l /\ m_id m = i.
Proof.
  induction l as [|x tl IH]; simpl; [discriminate|].
  destruct (N.eqb (m_id x) i) eqn:E.
  - intros H. inversion H; subst. split; [left; reflexivity | apply N.eqb_eq; exact E].
  - intros H. destruct (IH H) as [A B]. split; [right; exact A | exact B].
Qed.

Lemma find_id_None i l : find_id i l = None <-> ~ In i (ids l).
Proof.
  induction l as [|x tl IH]; simpl; [tauto|].
  destruct (N.eqb (m_id x) i) eqn:E.
  - apply N.eqb_eq in E. split; [discriminate | intros H; exfalso; apply H; left; exact E].
  - apply N.eqb_neq in E. rewrite IH. tauto.
Qed.

Lemma find_id_In_NoDup l m : NoDup (ids l) -> In m l -> find_id (m_id m) l = Some m.
Proof.
  intros ND Hin. destruct (find_id (m_id m) l) as [m'|] eqn:F.
  - apply find_id_Some in F. destruct F as [Hin' E]. f_equal. apply (NoDup_map_inj m_id l); assumption.
  - exfalso. apply (proj1 (find_id_None _ _) F). apply in_map. exact Hin.
Qed.

Lemma has_id_In i l : has_id i l = true <-> In i (ids l).
Proof.
  unfold has_id. destruct (find_id i l) eqn:E.
  - split; [|reflexivity]. intros _. apply find_id_Some in E. destruct E as [A B]. subst. apply in_map. exact A.
  - split; [discriminate|]. intros H. apply find_id_None in E. contradiction.
Qed.

Lemma find_id_apply_pm_on pm l i :
  (forall x x', In x l -> pm x = Some x' -> m_id x' = m_id x) -> NoDup (ids l) ->
  find_id i (apply_pm pm l) = match find_id i l with Some m => pm m | None => None end.
Proof.
  induction l as [|x tl IH]; simpl; intros P ND; [reflexivity|].
  inversion ND as [|? ? Hx Htl]; subst.
  assert (Ptl : forall y y', In y tl -> pm y = Some y' -> m_id y' = m_id y) by (intros; apply P; [right|]; assumption).
  destruct (N.eqb (m_id x) i) eqn:E.
  - apply N.eqb_eq in E. destruct (pm x) as [x'|] eqn:Ep; simpl.
    + rewrite (P x x' (or_introl eq_refl) Ep), E, N.eqb_refl. reflexivity.
    + apply find_id_None. intros Hin. apply Hx. rewrite E. apply (apply_pm_ids_incl_on pm tl Ptl). exact Hin.
  - destruct (pm x) as [x'|] eqn:Ep; simpl; [|apply IH; assumption].
    rewrite (P x x' (or_introl eq_refl) Ep), E. apply IH; assumption.
Qed.

Lemma find_id_apply_pm pm l i :
  id_pres pm -> NoDup (ids l) ->
  find_id i (apply_pm pm l) = match find_id i l with Some m => pm m | None => None end.
Proof. intros P. apply find_id_apply_pm_on. intros x x' _. apply P. Qed.

Lemma find_id_apply_pm_In pm l m :
  id_pres pm -> NoDup (ids l) -> In m l -> find_id (m_id m) (apply_pm pm l) = pm m.
Proof. intros P ND Hm. rewrite (find_id_apply_pm pm l _ P ND), (find_id_In_NoDup l m ND Hm). reflexivity. Qed.

Lemma find_id_app i l1 l2 :
  find_id i (l1 ++ l2) = match find_id i l1 with Some m => Some m | None => find_id i l2 end.
Proof.
  induction l1 as [|x tl IH]; simpl; [reflexivity|].
  destruct (N.eqb (m_id x) i); [reflexivity | exact IH].
Qed.

(** Most per-message functions of the model ([pm_sweep], [pm_prune_age], [pm_remove_ids], [pm_on_id],
    [pm_manage]) act on the messages a test selects and keep the others as they are: each is
    convertible with [pm_guard b f] for its test [b] and action [f]. *)
Definition pm_guard (b : msg -> bool) (f : msg -> option msg) (m : msg) : option msg :=
  if b m then f m else Some m.

Lemma guard_imm b f : imm_pres f -> imm_pres (pm_guard b f).
Proof.
  intros P m m' H. unfold pm_guard in H. destruct (b m); [apply P; exact H|].
  inversion H; subst. apply same_imm_refl.
Qed.

Lemma guard_none_same b m m' : pm_guard b (fun _ => None) m = Some m' -> m' = m.
Proof. unfold pm_guard. destruct (b m); intros H; inversion H; reflexivity. Qed.

Lemma pm_some_imm : imm_pres (fun m => Some m).
Proof. intros m m' H. inversion H; subst. apply same_imm_refl. Qed.

Lemma pm_none_imm : imm_pres (fun _ => None).
Proof. intros m m' H. discriminate. Qed.

Lemma pm_release_imm now : imm_pres (fun x => Some (release now x)).
Proof. intros m m' H. inversion H; subst. apply release_same_imm. Qed.

Lemma lease_effect_imm c now k : imm_pres (lease_effect c now k).
Proof.
  intros m m' H. unfold lease_effect in H.
  destruct k; try (destruct (0 <? c_deliv_age c)); inversion H; subst; apply upd_same_imm.
Qed.

Lemma manage_effect_imm now k : imm_pres (manage_effect now k).
Proof.
  intros m m' H. unfold manage_effect in H. destruct k; inversion H; subst; apply upd_same_imm.
Qed.

Lemma pm_lease_imm now ttl picked : imm_pres (pm_lease now ttl picked).
Proof.
  intros m m' H. unfold pm_lease in H. destruct (lease_of picked (m_id m)); inversion H; subst;
    [apply upd_same_imm | apply same_imm_refl].
Qed.

Lemma pm_sweep_imm now : imm_pres (pm_sweep now).
Proof. exact (guard_imm (expired now) _ (pm_release_imm now)). Qed.

Lemma pm_prune_age_imm c now : imm_pres (pm_prune_age c now).
Proof. exact (guard_imm (prune_age_eligible c now) _ pm_none_imm). Qed.

Lemma pm_remove_ids_imm l : imm_pres (pm_remove_ids l).
Proof. exact (guard_imm (fun m => memN (m_id m) l) _ pm_none_imm). Qed.

Lemma pm_on_id_imm i f : imm_pres f -> imm_pres (pm_on_id i f).
Proof. exact (guard_imm (fun m => N.eqb (m_id m) i) f). Qed.

Lemma pm_manage_imm now k l : imm_pres (pm_manage now k l).
Proof. exact (guard_imm (fun m => memN (m_id m) l && allowed_from k (m_st m)) _ (manage_effect_imm now k)). Qed.

Lemma pm_prune_age_same c now m m' : pm_prune_age c now m = Some m' -> m' = m.
Proof. exact (guard_none_same (prune_age_eligible c now) m m'). Qed.

Lemma pm_remove_ids_same vs m m' : pm_remove_ids vs m = Some m' -> m' = m.
Proof. exact (guard_none_same (fun x => memN (m_id x) vs) m m'). Qed.

Lemma pm_comp_imm f g : imm_pres f -> imm_pres g -> imm_pres (pm_comp f g).
Proof.
  intros Pf Pg m m' H. unfold pm_comp in H. destruct (f m) as [x|] eqn:E; [|discriminate].
  eapply same_imm_trans; [apply Pf; exact E | apply Pg; exact H].
Qed.

#[export] Hint Resolve pm_sweep_imm pm_prune_age_imm pm_remove_ids_imm pm_lease_imm lease_effect_imm
  manage_effect_imm pm_on_id_imm pm_manage_imm pm_comp_imm pm_some_imm pm_release_imm imm_pres_id_pres : qimm.

Definition pm_prune_msgs (c : cfg) (now : Z) (hint : list N) (l : list msg) : msg -> option msg :=
  pm_comp (pm_prune_age c now)
          (pm_remove_ids (dlq_depth_victims (c_dlq_depth c) hint (apply_pm (pm_prune_age c now) l))).

Lemma prune_msgs_pm c now hint l : prune_msgs c now hint l = apply_pm (pm_prune_msgs c now hint l) l.
Proof. unfold prune_msgs, pm_prune_msgs. rewrite apply_pm_comp. reflexivity. Qed.

Lemma pm_prune_msgs_imm c now hint l : imm_pres (pm_prune_msgs c now hint l).
Proof. unfold pm_prune_msgs. auto with qimm. Qed.

Lemma pm_prune_msgs_same c now hint l m m' : pm_prune_msgs c now hint l m = Some m' -> m' = m.
Proof.
  unfold pm_prune_msgs, pm_comp. destruct (pm_prune_age c now m) as [m1|] eqn:E; [|discriminate].
  apply pm_prune_age_same in E. subst m1. apply pm_remove_ids_same.
Qed.

Definition prune_pm (c : cfg) (now : Z) (hint : list N) (s : state) : msg -> option msg :=
  if prune_due c now (last_prune s) then pm_prune_msgs c now hint (msgs s) else (fun m => Some m).

Lemma prune_msgs_eq c now hint s : msgs (prune c now hint s) = apply_pm (prune_pm c now hint s) (msgs s).
Proof.
  unfold prune, prune_pm. destruct (prune_due c now (last_prune s)); simpl.
  - apply prune_msgs_pm.
  - symmetry. apply apply_pm_id.
Qed.

Lemma prune_pm_same c now hint s m m' : prune_pm c now hint s m = Some m' -> m' = m.
Proof.
  unfold prune_pm. destruct (prune_due c now (last_prune s)).
  - apply pm_prune_msgs_same.
  - intros H; inversion H; reflexivity.
Qed.

Lemma prune_sub c now hint s m : In m (msgs (prune c now hint s)) -> In m (msgs s).
Proof.
  rewrite prune_msgs_eq. intros H. apply apply_pm_In in H. destruct H as [m0 [H0 E]].
  apply prune_pm_same in E. subst. exact H0.
Qed.

Lemma prune_pm_imm c now hint s : imm_pres (prune_pm c now hint s).
Proof. intros m m' H. apply prune_pm_same in H. subst. apply same_imm_refl. Qed.
#[export] Hint Resolve prune_pm_imm : qimm.

Lemma prune_order c now hint s : order (prune c now hint s) = order s.
Proof. unfold prune. destruct (prune_due _ _ _); reflexivity. Qed.

Lemma prune_issued c now hint s : issued (prune c now hint s) = issued s.
Proof. unfold prune. destruct (prune_due _ _ _); reflexivity. Qed.

Lemma prune_last_sweep c now hint s : last_sweep (prune c now hint s) = last_sweep s.
Proof. unfold prune. destruct (prune_due _ _ _); reflexivity. Qed.
