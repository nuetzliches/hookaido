(** The shape of PushDispatcher.runRoute as the translator reads it from the source on every run (Gen/PushShape.v) is the one
    Model/PushLoop.v was written for: lease actions are batched exactly on single-target routes, flushed when the mutation batch is
    full and once more after the loop, a message for an unconfigured target is retried after [missing_target_backoff], and the stop
    branch APPLIES THE PENDING ACTIONS before it hands the rest back and returns (fix b30c35c; the pinned tree only handed back). *)
From Coq Require Import ZArith List String Bool.
From HK Require Import Gen.PushShape Model.PushLoop.
Import ListNotations.
Open Scope string_scope.

(** the stop branch settles what was already delivered, then hands the rest back *)
Definition expected_stop_branch_calls : list string := ["applyLeaseActions"; "requeueLeases"].

Lemma push_shape_understood : ps_shape_ok = true.
Proof. reflexivity. Qed.

Lemma push_shape_is_the_models :
  ps_missing_target_backoff_ns = missing_target_backoff
  /\ ps_batch_iff_single_target = true
  /\ ps_flush_when_ge_mutation_batch = true
  /\ ps_final_flush = true
  /\ ps_stop_branch_calls = expected_stop_branch_calls.
Proof. repeat split; reflexivity. Qed.
