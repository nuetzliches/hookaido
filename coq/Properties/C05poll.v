(** C05 (continued) - a consumer that is already WAITING inside Dequeue (MaxWait > 0) when a message becomes ready.
    The theorems are stated here, each derived from the lemmas of Proofs/LongPollProofs.v. *)
From Coq Require Import ZArith List Bool NArith.
From HK Require Import Model.Queue Model.LongPoll Proofs.QueueInv Proofs.QueueInvStep Proofs.LongPollProofs.
Import ListNotations.
Open Scope Z_scope.

(** the waiting call always answers, and keeps the queue invariant whatever the other clients do meanwhile *)
Theorem C05_long_poll_answers : forall fl c route target batch ttl a tl s,
  exists r, snd (long_poll fl c route target batch ttl s (a :: tl)) = Some r.
Proof.
  intros fl c route target batch ttl a tl s.
  destruct (long_poll_answer fl c route target batch ttl (a :: tl) s) as [r [Er _]]; [discriminate|].
  exists r. exact Er.
Qed.

Theorem C05_long_poll_keeps_invariant : forall fl c route target batch ttl ats s,
  Inv s -> Inv (fst (long_poll fl c route target batch ttl s ats)).
Proof.
  intros fl c route target batch ttl ats. induction ats as [|a tl IH]; intros s I; [exact I|].
  cbn [long_poll]. pose proof (run_env_inv fl c s (at_env a) I) as I0.
  pose proof (step_inv fl c _ (Dequeue (at_now a) route target batch ttl) (at_orc a) I0) as I1.
  destruct (step fl c (run_env fl c s (at_env a)) _ _) as [s1 r]. cbn [fst] in I1.
  destruct (empty_items r); [|exact I1]. destruct tl as [|b tl']; [exact I1 | apply IH; exact I1].
Qed.

(** it gives the empty answer only after every attempt up to the deadline found nothing *)
Theorem C05_long_poll_empty_only_at_deadline : forall fl c route target batch ttl ats s r,
  snd (long_poll fl c route target batch ttl s ats) = Some r -> empty_items r = true ->
  attempts_made fl c route target batch ttl s ats = length ats.
Proof.
  intros fl c route target batch ttl ats s r H E. destruct ats as [|a tl]; [discriminate|].
  destruct (long_poll_answer fl c route target batch ttl (a :: tl) s) as [r' [Er Ee]]; [discriminate|].
  rewrite Er in H. inversion H; subst r'. exact (Ee E).
Qed.

(** no ready message stays hidden behind a waiting consumer: if the k-th attempt of the wait selects from a state that
    holds a ready message of the route / target (its lease ran out, its nack delay matured, it was enqueued - whatever
    the other clients did), the call returns at that attempt, and not empty-handed *)
Theorem C05_long_poll_returns_what_became_ready : forall fl c route target batch ttl ats s k sk a m,
  Inv s -> state_before fl c route target batch ttl s ats k = Some sk -> nth_error ats k = Some a ->
  In m (msgs (deq_pre fl c (at_now a) (at_orc a) sk)) -> ready (at_now a) route target m = true ->
  snd (step fl c sk (Dequeue (at_now a) route target batch ttl) (at_orc a)) <> RBadOracle ->
  attempts_made fl c route target batch ttl s ats = S k
  /\ exists r, snd (long_poll fl c route target batch ttl s ats) = Some r /\ empty_items r = false.
Proof.
  intros fl c route target batch ttl ats s k sk a m I H Hn Hm Hr Hb.
  pose proof (state_before_inv fl c route target batch ttl ats s k sk I H) as Ik.
  destruct (step fl c sk (Dequeue (at_now a) route target batch ttl) (at_orc a)) as [s1 r] eqn:Es.
  (* the attempt sees the ready message, so it is not empty, and the wait ends there *)
  pose proof (attempt_finds_ready fl c route target batch ttl sk _ _ m Ik Hm Hr s1 r Es Hb) as E.
  destruct (long_poll_stops_at fl c route target batch ttl ats s k sk a s1 r H Hn Es E) as [Ea Er].
  split; [exact Ea|]. exists r. split; [exact Er | exact E].
Qed.

(** non-vacuity: the holder's lease (until 100) runs out while a second consumer waits: the attempts at 50 and 80 find
    nothing, the attempt at 120 releases the lease and returns the message with attempt 2; the deadline attempt at 200 is
    never made *)
Definition ex_lp_state : state :=
  mkState [mkMsg 1 1 1 Leased 0 1 100 0 0 0 0 (Some 9%N) 100] [1%N] None 0 [9%N].
Definition ex_lp_attempts : list attempt :=
  [mkAttempt [] 50 (mkOracle [] [] [] []); mkAttempt [] 80 (mkOracle [] [] [] []);
   mkAttempt [] 120 (mkOracle [(1%N, 10%N)] [] [] []); mkAttempt [] 200 (mkOracle [] [] [] [])].
Example C05_long_poll_example :
  snd (long_poll Mem (mkCfg 0 false 0 0 0 0 0 0) None None 5 1000 ex_lp_state ex_lp_attempts) = Some (RItems [(1%N, 10%N, 2, 1120)])
  /\ attempts_made Mem (mkCfg 0 false 0 0 0 0 0 0) None None 5 1000 ex_lp_state ex_lp_attempts = 3%nat.
Proof. vm_compute. split; reflexivity. Qed.

Print Assumptions C05_long_poll_answers.
Print Assumptions C05_long_poll_keeps_invariant.
Print Assumptions C05_long_poll_empty_only_at_deadline.
Print Assumptions C05_long_poll_returns_what_became_ready.
