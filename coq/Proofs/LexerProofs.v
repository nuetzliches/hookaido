(** Lemmas about the lexer / formatter spelling layer (C19).
    Everything here is for ALL rune sequences (unbounded); no sampling. *)
From Coq Require Import List NArith Bool Lia.
From HK Require Import Model.Lexer Model.FormatValue.
Import ListNotations.
Open Scope N_scope.

(** no undecodable byte *)
Definition valid_runes (s : list rune) : Prop := Forall (fun r => invalid r = false) s.

(** what may follow an unquoted value so that readIdent stops there: end of input or a
    stop rune (the formatter always writes ' ', or '\n' after a value) *)
Definition delim_ok (rest : list rune) : Prop :=
  match rest with [] => True | r :: _ => is_ident_stop r = true end.

(** the two shapes of text a [TIdent] token can have *)
Definition plain_ident (t : list rune) : Prop :=
  exists r tl, t = r :: tl /\ invalid r = false /\ Forall (fun x => is_ident_stop x = false) t.

Definition ph_clean (x : rune) : Prop :=
  invalid x = false /\ is_space x = false /\ x <> 123 /\ x <> 125.

Definition placeholder_ident (t : list rune) : Prop :=
  exists body, t = 123 :: body ++ [125] /\ ph_prefix t = true /\ Forall ph_clean body.

Definition ident_shaped (t : list rune) : Prop := plain_ident t \/ placeholder_ident t.

(** an AST value as the parser builds it: parseValue returns (tok.text, tok.kind == tokString) *)
Definition value_token (t : list rune) (quoted : bool) : token :=
  if quoted then TString t else TIdent t.

Definition parser_value (t : list rune) (quoted : bool) : Prop :=
  if quoted then valid_runes t else ident_shaped t.

(** a route path as the parser builds it: a string token, or an ident token starting with '/' *)
Definition parser_path (t : list rune) (quoted : bool) : Prop :=
  if quoted then valid_runes t else plain_ident t /\ starts_with 47 t = true.

Lemma space_is_stop r : is_space r = true -> is_ident_stop r = true.
Proof. unfold is_ident_stop. intros ->. reflexivity. Qed.

Lemma space_valid r : is_space r = true -> invalid r = false.
Proof.
  unfold is_space. intros H.
  repeat (apply orb_prop in H as [H|H]); apply N.eqb_eq in H; subst r; reflexivity.
Qed.

(** peels one comparison off a character set written as a disjunction *)
Lemma orb_eqb_false b r c : b || (r =? c) = false <-> b = false /\ r <> c.
Proof. rewrite orb_false_iff, N.eqb_neq. reflexivity. Qed.

Lemma space_false_parts r : is_space r = false -> r <> 32 /\ r <> 9 /\ r <> 10 /\ r <> 13.
Proof.
  unfold is_space. intros H.
  apply orb_eqb_false in H as [H H13]. apply orb_eqb_false in H as [H H10].
  apply orb_eqb_false in H as [H H9]. apply N.eqb_neq in H. auto.
Qed.

Lemma stop_false_parts r : is_ident_stop r = false ->
  is_space r = false /\ r <> 123 /\ r <> 125 /\ r <> 34 /\ r <> 35.
Proof.
  unfold is_ident_stop. intros H.
  apply orb_eqb_false in H as [H H35]. apply orb_eqb_false in H as [H H34].
  apply orb_eqb_false in H as [H H125]. apply orb_eqb_false in H as [H H123]. auto.
Qed.

Lemma stop_false_build r :
  is_space r = false -> r <> 123 -> r <> 125 -> r <> 34 -> r <> 35 -> is_ident_stop r = false.
Proof.
  intros Hs H1 H2 H3 H4. unfold is_ident_stop.
  do 4 (apply orb_eqb_false; split; [|assumption]). exact Hs.
Qed.

(** the formatter's two character sets are the lexer's (the same disjunctions, [ws_rune]
    with its last two members swapped) *)
Lemma unsafe_is_stop r : unsafe_rune r = is_ident_stop r.
Proof. reflexivity. Qed.

Lemma ws_is_space r : ws_rune r = is_space r.
Proof. unfold ws_rune, is_space. rewrite <- !orb_assoc, (orb_comm (r =? 13)). reflexivity. Qed.

(** what the dispatch of nextToken knows about the rune in each of its branches *)
Lemma classify_spec r :
  match classify r with
  | CInvalid => invalid r = true
  | CSpace => is_space r = true
  | CLBrace => r = 123
  | CHash => r = 35
  | CRBrace => r = 125
  | CQuote => r = 34
  | COther => invalid r = false /\ is_ident_stop r = false
  end.
Proof.
  unfold classify, is_ident_stop.
  destruct (invalid r); [reflexivity|].
  destruct (is_space r); [reflexivity|].
  destruct (N.eqb_spec r 123); [assumption|].
  destruct (N.eqb_spec r 35); [assumption|].
  destruct (N.eqb_spec r 125); [assumption|].
  destruct (N.eqb_spec r 34); [assumption|].
  split; reflexivity.
Qed.

Lemma classify_space r : classify r = CSpace -> is_space r = true.
Proof. intros H. pose proof (classify_spec r) as C. rewrite H in C. exact C. Qed.

Lemma classify_nonstop r : invalid r = false -> is_ident_stop r = false -> classify r = COther.
Proof.
  intros Hi Hs. pose proof (classify_spec r) as C.
  destruct (classify r); [congruence | apply space_is_stop in C; congruence | | | | | reflexivity];
    (* '{' '#' '}' and the quote are stop runes, by computation *)
    subst r; discriminate Hs.
Qed.

Lemma norm_valid r : invalid (norm_rune r) = false.
Proof. unfold norm_rune. destruct (invalid r) eqn:E; [reflexivity | exact E]. Qed.

Lemma norm_id r : invalid r = false -> norm_rune r = r.
Proof. unfold norm_rune. intros ->. reflexivity. Qed.

Lemma norm_neq r c : c < 0xFFFD -> r <> c -> norm_rune r <> c.
Proof. unfold norm_rune. intros Hc Hr. destruct (invalid r); [lia | exact Hr]. Qed.

Lemma map_norm_valid s : valid_runes s -> map norm_rune s = s.
Proof.
  induction 1 as [|r s Hr _ IH]; [reflexivity|]. cbn [map]. rewrite (norm_id _ Hr), IH. reflexivity.
Qed.

Lemma map_norm_is_valid s : valid_runes (map norm_rune s).
Proof. induction s; constructor; [apply norm_valid | assumption]. Qed.

(** * readString reads back what quoteString wrote *)

Lemma read_string_quote tl : read_string (34 :: tl) = SOk [] tl.
Proof. reflexivity. Qed.

Lemma read_string_escape e tl :
  invalid e = false -> read_string (92 :: e :: tl) = str_cons (unescape e) (read_string tl).
Proof.
  intros H. change (read_string (92 :: e :: tl)) with
    (if invalid e then SErr EInvalidUtf8 else str_cons (unescape e) (read_string tl)).
  rewrite H. reflexivity.
Qed.

Lemma read_string_plain r tl :
  invalid r = false -> r <> 10 -> r <> 34 -> r <> 92 ->
  read_string (r :: tl) = str_cons r (read_string tl).
Proof.
  intros Hi H10 H34 H92. apply N.eqb_neq in H10, H34, H92. cbn [read_string].
  rewrite Hi, H10, H34, H92. reflexivity.
Qed.

Lemma quote_rune_plain r :
  r <> 92 -> r <> 34 -> r <> 10 -> r <> 9 -> r <> 13 -> quote_rune r = [norm_rune r].
Proof.
  intros H92 H34 H10 H9 H13. apply N.eqb_neq in H92, H34, H10, H9, H13.
  unfold quote_rune. rewrite H92, H34, H10, H9, H13. reflexivity.
Qed.

(** one rune as quoteString writes it: escaped, or itself with U+FFFD for an undecodable byte *)
Lemma read_string_quote_rune r tl :
  read_string (quote_rune r ++ tl) = str_cons (norm_rune r) (read_string tl).
Proof.
  destruct (N.eq_dec r 92) as [->|N92]; [exact (read_string_escape 92 tl eq_refl)|].
  destruct (N.eq_dec r 34) as [->|N34]; [exact (read_string_escape 34 tl eq_refl)|].
  destruct (N.eq_dec r 10) as [->|N10]; [exact (read_string_escape 110 tl eq_refl)|].
  destruct (N.eq_dec r 9) as [->|N9]; [exact (read_string_escape 116 tl eq_refl)|].
  destruct (N.eq_dec r 13) as [->|N13]; [exact (read_string_escape 114 tl eq_refl)|].
  rewrite quote_rune_plain by assumption.
  apply read_string_plain; [apply norm_valid | apply norm_neq; [reflexivity | assumption] ..].
Qed.

Lemma read_string_quote_body s rest :
  read_string (quote_body s ++ 34 :: rest) = SOk (map norm_rune s) rest.
Proof.
  induction s as [|r s IH]; [reflexivity|].
  change (quote_body (r :: s)) with (quote_rune r ++ quote_body s).
  rewrite <- app_assoc, read_string_quote_rune, IH. reflexivity.
Qed.

Lemma next_token_quote_char tl :
  next_token (34 :: tl) =
  match read_string tl with SOk t rest => LTok (TString t) rest | SErr e => LErr e end.
Proof. reflexivity. Qed.

(** For EVERY Go string (undecodable bytes included): the lexer reads the quoted spelling
    back as one string token whose text is the input with each undecodable byte replaced by
    U+FFFD (what [range] + [WriteRune] do), and leaves exactly [rest]. *)
Lemma quote_roundtrip_any s rest :
  next_token (quote_string s ++ rest) = LTok (TString (map norm_rune s)) rest.
Proof.
  unfold quote_string. cbn [app]. rewrite <- app_assoc, next_token_quote_char.
  change ([34] ++ rest) with (34 :: rest). rewrite read_string_quote_body. reflexivity.
Qed.

Lemma quote_roundtrip s rest :
  valid_runes s -> next_token (quote_string s ++ rest) = LTok (TString s) rest.
Proof. intros H. rewrite quote_roundtrip_any, (map_norm_valid _ H). reflexivity. Qed.

(** quoting is insensitive to the U+FFFD normalisation, hence stable from the first output on:
    an undecodable item lies above every escaped rune, and U+FFFD is written as itself *)
Lemma quote_rune_norm r : quote_rune (norm_rune r) = quote_rune r.
Proof.
  unfold norm_rune at 1. destruct (invalid r) eqn:E; [|reflexivity].
  assert (H : 92 < r).
  { apply N.lt_le_trans with 0x110000; [reflexivity | apply N.leb_le; exact E]. }
  rewrite (quote_rune_plain r) by (intros ->; discriminate H).
  unfold norm_rune. rewrite E. reflexivity.
Qed.

Lemma quote_string_norm s : quote_string (map norm_rune s) = quote_string s.
Proof.
  unfold quote_string, quote_body. do 2 f_equal.
  induction s as [|r s IH]; [reflexivity|]. cbn [map flat_map]. rewrite quote_rune_norm, IH. reflexivity.
Qed.

(** * readString: the text has no undecodable byte, and at least the closing quote is consumed *)

Lemma unescape_valid e : invalid e = false -> invalid (unescape e) = false.
Proof.
  intros H. unfold unescape.
  destruct (e =? 110); [reflexivity|]. destruct (e =? 116); [reflexivity|].
  destruct (e =? 114); [reflexivity|]. exact H.
Qed.

Lemma str_cons_ok r x t rest : str_cons r x = SOk t rest -> exists t', x = SOk t' rest /\ t = r :: t'.
Proof. destruct x; cbn; [|discriminate]. intros [= <- <-]. eauto. Qed.

(** readString takes one or two runes per step, hence the induction on a bound of the length *)
Lemma read_string_spec_le n : forall s t rest, (length s <= n)%nat ->
  read_string s = SOk t rest -> valid_runes t /\ (length rest < length s)%nat.
Proof.
  induction n as [|n IH]; intros s t rest Hn.
  { destruct s; [discriminate | cbn [length] in Hn; lia]. }
  destruct s as [|r s]; [discriminate|].
  cbn [length] in Hn. cbn [read_string].
  destruct (invalid r) eqn:Hr; [discriminate|]. destruct (r =? 10); [discriminate|].
  destruct (r =? 34).
  { intros [= <- <-]. split; [constructor | cbn [length]; lia]. }
  (* both remaining branches prepend a decodable rune to the reading of a shorter input *)
  assert (K : forall x s', invalid x = false -> (length s' <= n)%nat ->
              str_cons x (read_string s') = SOk t rest ->
              valid_runes t /\ (length rest < length s')%nat).
  { intros x s' Hx Hs' H. apply str_cons_ok in H. destruct H as [t' [H ->]].
    destruct (IH _ _ _ Hs' H) as [Hv Hl]. split; [constructor; assumption | exact Hl]. }
  destruct (r =? 92).
  - destruct s as [|e s']; [discriminate|]. destruct (invalid e) eqn:He; [discriminate|].
    cbn [length] in *. intros H.
    destruct (K _ s' (unescape_valid _ He) ltac:(lia) H) as [Hv Hl]. split; [exact Hv | lia].
  - intros H. destruct (K _ s Hr ltac:(lia) H) as [Hv Hl]. cbn [length]. split; [exact Hv | lia].
Qed.

Lemma read_string_spec s t rest :
  read_string s = SOk t rest -> valid_runes t /\ (length rest < length s)%nat.
Proof. apply (read_string_spec_le (length s)). apply le_n. Qed.

(** * readIdent, comments: the text is a prefix of the input, and what is left begins with the delimiter *)

Lemma read_ident_spec s : forall a b, read_ident s = (a, b) ->
  s = a ++ b /\ Forall (fun x => is_ident_stop x = false) a /\ delim_ok b.
Proof.
  induction s as [|r s IH]; intros a b; cbn [read_ident].
  - intros [= <- <-]. repeat split; constructor.
  - destruct (is_ident_stop r) eqn:E.
    + intros [= <- <-]. repeat split; [constructor | exact E].
    + destruct (read_ident s) as [a' b'] eqn:R. intros [= <- <-].
      destruct (IH a' b' eq_refl) as [-> [Hf Hd]].
      repeat split; [constructor; assumption | exact Hd].
Qed.

Lemma read_ident_app a b :
  Forall (fun x => is_ident_stop x = false) a -> delim_ok b -> read_ident (a ++ b) = (a, b).
Proof.
  intros Ha Hb. induction Ha as [|r a Hr _ IH].
  - destruct b as [|r b]; [reflexivity|]. cbn in Hb |- *. rewrite Hb. reflexivity.
  - cbn [app read_ident]. rewrite Hr, IH. reflexivity.
Qed.

Lemma read_comment_spec s : forall a b, read_comment s = (a, b) ->
  s = a ++ b /\ match b with [] => True | r :: _ => r = 10 end.
Proof.
  induction s as [|r s IH]; intros a b; cbn [read_comment].
  - intros [= <- <-]. split; constructor.
  - destruct (N.eqb_spec r 10) as [E|_].
    + intros [= <- <-]. split; [reflexivity | exact E].
    + destruct (read_comment s) as [a' b'] eqn:R. intros [= <- <-].
      destruct (IH a' b' eq_refl) as [-> Hd]. split; [reflexivity | exact Hd].
Qed.

Lemma ph_cons_ok r x t rest : ph_cons r x = PhOk t rest -> exists t', x = PhOk t' rest /\ t = r :: t'.
Proof. destruct x; cbn; try discriminate. intros [= <- <-]. eauto. Qed.

Lemma ph_scan_spec s : forall a b, ph_scan s = PhOk a b ->
  exists body, a = body ++ [125] /\ s = a ++ b /\ Forall ph_clean body.
Proof.
  induction s as [|r s IH]; intros a b; cbn [ph_scan]; [discriminate|].
  destruct (invalid r) eqn:Ei; [discriminate|].
  destruct (is_space r) eqn:Es; [discriminate|].
  destruct (N.eqb_spec r 123) as [|N123]; [discriminate|]. cbn [orb].
  destruct (N.eqb_spec r 125) as [->|N125].
  - intros [= <- <-]. exists []. repeat split. constructor.
  - intros H. apply ph_cons_ok in H. destruct H as [t' [H ->]].
    destruct (IH _ _ H) as [body [-> [-> Hc]]].
    exists (r :: body). repeat split. constructor; [|exact Hc]. repeat split; assumption.
Qed.

Lemma ph_scan_app body rest :
  Forall ph_clean body -> ph_scan ((body ++ [125]) ++ rest) = PhOk (body ++ [125]) rest.
Proof.
  induction 1 as [|r body [Hi [Hs [H1 H2]]] _ IH]; [reflexivity|].
  apply N.eqb_neq in H1, H2. cbn [app ph_scan]. rewrite Hi, Hs, H1, H2, IH. reflexivity.
Qed.

(** a prefix that does not contain [x] cannot tell what follows the first [x] *)
Lemma has_prefix_cut p x : forallb (fun c => negb (c =? x)) p = true -> forall a rest,
  has_prefix p (a ++ x :: rest) = has_prefix p a.
Proof.
  induction p as [|c p IH]; intros Hx a rest; [reflexivity|].
  cbn [forallb] in Hx. apply andb_true_iff in Hx. destruct Hx as [Hc Hp].
  destruct a as [|y a]; cbn [has_prefix app].
  - apply negb_true_iff in Hc. rewrite Hc. reflexivity.
  - f_equal. apply IH. exact Hp.
Qed.

Lemma ph_prefix_cut a rest : ph_prefix (a ++ 125 :: rest) = ph_prefix a.
Proof. unfold ph_prefix. rewrite !has_prefix_cut by reflexivity. reflexivity. Qed.

(** readPlaceholder tests the prefix on the whole input, [placeholder_ident] on the text alone *)
Lemma ph_prefix_closed body rest :
  ph_prefix ((123 :: body ++ [125]) ++ rest) = ph_prefix (123 :: body ++ [125]).
Proof.
  cbn [app]. rewrite <- app_assoc.
  change (ph_prefix ((123 :: body) ++ 125 :: rest) = ph_prefix ((123 :: body) ++ [125])).
  rewrite !ph_prefix_cut. reflexivity.
Qed.

Lemma read_placeholder_spec s t rest :
  read_placeholder (123 :: s) = PhOk t rest -> placeholder_ident t /\ 123 :: s = t ++ rest.
Proof.
  unfold read_placeholder. destruct (ph_prefix (123 :: s)) eqn:P; [|discriminate].
  intros H. apply ph_cons_ok in H. destruct H as [a [H ->]].
  destruct (ph_scan_spec _ _ _ H) as [body [-> [-> Hc]]].
  split; [|reflexivity]. exists body. repeat split; [|exact Hc].
  rewrite <- (ph_prefix_closed body rest). exact P.
Qed.

Lemma read_placeholder_app t rest :
  placeholder_ident t -> read_placeholder (t ++ rest) = PhOk t rest.
Proof.
  intros [body [-> [Hp Hc]]]. unfold read_placeholder. rewrite ph_prefix_closed, Hp.
  cbn [app]. rewrite (ph_scan_app _ _ Hc). reflexivity.
Qed.

Lemma next_token_space r tl : is_space r = true -> next_token (r :: tl) = next_token tl.
Proof. intros Hs. cbn [next_token]. unfold classify. rewrite (space_valid _ Hs), Hs. reflexivity. Qed.

Lemma next_token_other r tl : invalid r = false -> is_ident_stop r = false ->
  next_token (r :: tl) = let (i, rest) := read_ident (r :: tl) in LTok (TIdent i) rest.
Proof. intros Hi Hs. cbn [next_token]. rewrite (classify_nonstop _ Hi Hs). reflexivity. Qed.

Lemma next_token_lbrace tl :
  next_token (123 :: tl) =
  match read_placeholder (123 :: tl) with
  | PhErr => LErr EInvalidUtf8
  | PhOk t rest => LTok (TIdent t) rest
  | PhNo => LTok TLBrace tl
  end.
Proof. reflexivity. Qed.

(** leading blanks before a token change nothing (the formatter indents and separates with ' ') *)
Lemma next_token_skip ws s : Forall (fun r => is_space r = true) ws -> next_token (ws ++ s) = next_token s.
Proof.
  induction 1 as [|r ws Hr _ IH]; [reflexivity|].
  cbn [app]. rewrite (next_token_space _ _ Hr). exact IH.
Qed.

(** * Every token the lexer returns is well formed and, unless it is EOF, has consumed input *)

Definition token_ok (t : token) : Prop :=
  match t with
  | TIdent x => ident_shaped x
  | TString x => valid_runes x
  | _ => True
  end.

Lemma app_length_lt {A} (a b : list A) : a <> [] -> (length b < length (a ++ b))%nat.
Proof. intros H. rewrite app_length. destruct a; [congruence | cbn; lia]. Qed.

Lemma next_token_spec s : forall t rest, next_token s = LTok t rest ->
  token_ok t /\ (t <> TEOF -> (length rest < length s)%nat).
Proof.
  induction s as [|r s IH]; intros t rest; cbn [next_token].
  { intros [= <- <-]. split; [exact I | congruence]. }
  pose proof (classify_spec r) as C. destruct (classify r).
  - discriminate.
  - intros H. destruct (IH _ _ H) as [Ht Hl].
    split; [exact Ht | intros Hn; specialize (Hl Hn); cbn [length]; lia].
  - subst r. destruct (read_placeholder (123 :: s)) as [| |t' rest'] eqn:P; [|discriminate|].
    + intros [= <- <-]. split; [exact I | intros _; cbn [length]; lia].
    + intros [= <- <-]. destruct (read_placeholder_spec _ _ _ P) as [Hp E].
      split; [right; exact Hp | intros _; rewrite E; apply app_length_lt].
      destruct Hp as [body [-> _]]. discriminate.
  - (* a comment: its text is not empty, since what is left would begin with '#', not '\n' *)
    destruct (read_comment (r :: s)) as [c rest'] eqn:R. intros [= <- <-].
    destruct (read_comment_spec _ _ _ R) as [E D].
    split; [exact I | intros _; rewrite E; apply app_length_lt].
    intros ->. cbn [app] in E. subst rest' r. discriminate D.
  - intros [= <- <-]. split; [exact I | intros _; cbn [length]; lia].
  - destruct (read_string s) as [t' rest'|] eqn:R; [|discriminate]. intros [= <- <-].
    destruct (read_string_spec _ _ _ R) as [Hv Hl].
    split; [exact Hv | intros _; cbn [length]; lia].
  - (* an identifier: not empty either, since what is left would begin with [r], not a stop rune *)
    destruct C as [Ci Cs]. destruct (read_ident (r :: s)) as [i rest'] eqn:R. intros [= <- <-].
    destruct (read_ident_spec _ _ _ R) as [E [Hf D]].
    destruct i as [|r0 a]; [cbn [app] in E; subst rest'; cbn in D; congruence|].
    split; [|intros _; rewrite E; apply app_length_lt; discriminate].
    injection E as <- _. left. exists r, a. repeat split; assumption.
Qed.

Lemma ident_shapes s : forall t rest, next_token s = LTok (TIdent t) rest -> ident_shaped t.
Proof. intros t rest H. exact (proj1 (next_token_spec _ _ _ H)). Qed.

(** every value the parser can put into the AST is a [parser_value] *)
Lemma lexed_value_is_parser_value s t q rest :
  next_token s = LTok (value_token t q) rest -> parser_value t q.
Proof. intros H. apply next_token_spec in H. destruct q; exact (proj1 H). Qed.

Lemma plain_roundtrip t rest :
  plain_ident t -> delim_ok rest -> next_token (t ++ rest) = LTok (TIdent t) rest.
Proof.
  intros [r [tl [-> [Hi Hf]]]] Hd. cbn [app].
  rewrite (next_token_other _ _ Hi (Forall_inv Hf)).
  change (r :: tl ++ rest) with ((r :: tl) ++ rest). rewrite (read_ident_app _ _ Hf Hd). reflexivity.
Qed.

Lemma placeholder_roundtrip t rest :
  placeholder_ident t -> next_token (t ++ rest) = LTok (TIdent t) rest.
Proof.
  intros H. pose proof (read_placeholder_app t rest H) as R. destruct H as [body [-> _]].
  cbn [app] in *. rewrite next_token_lbrace, R. reflexivity.
Qed.

Lemma unquoted_roundtrip t rest :
  ident_shaped t -> delim_ok rest -> next_token (t ++ rest) = LTok (TIdent t) rest.
Proof. intros [H|H] Hd; [apply plain_roundtrip; assumption | apply placeholder_roundtrip; assumption]. Qed.

(** * What the formatter writes unquoted *)

Lemma forallb_safe_stop t :
  forallb (fun r => negb (unsafe_rune r)) t = true <-> Forall (fun x => is_ident_stop x = false) t.
Proof.
  rewrite forallb_forall, Forall_forall. split; intros H x Hx.
  - rewrite <- unsafe_is_stop. apply negb_true_iff, H, Hx.
  - rewrite unsafe_is_stop. apply negb_true_iff, H, Hx.
Qed.

Lemma ends_with_last c a : ends_with c (a ++ [c]) = true.
Proof.
  induction a as [|x a IH]; [cbn; apply N.eqb_refl|].
  cbn [app]. destruct (a ++ [c]) eqn:E; [destruct a; discriminate|].
  cbn [ends_with]. exact IH.
Qed.

Lemma ident_shaped_safe t : ident_shaped t -> is_unquoted_value_safe t = true.
Proof.
  intros [[r [tl [-> [Hi Hf]]]] | [body [-> [Hp Hc]]]]; unfold is_unquoted_value_safe.
  - destruct (starts_with 123 (r :: tl) && ends_with 125 (r :: tl) && negb (existsb ws_rune (r :: tl)));
      [reflexivity|].
    apply forallb_safe_stop. exact Hf.
  - assert (E : existsb ws_rune (body ++ [125]) = false).
    { clear Hp. induction Hc as [|x body [_ [Hs _]] _ IH]; [reflexivity|].
      cbn [app existsb]. rewrite ws_is_space, Hs. exact IH. }
    (* [ws_rune 123] computes to [false] *)
    change (existsb ws_rune (123 :: body ++ [125])) with (existsb ws_rune (body ++ [125])). rewrite E.
    change (123 :: body ++ [125]) with ((123 :: body) ++ [125]). rewrite ends_with_last. reflexivity.
Qed.

Lemma plain_slash_path_safe t : plain_ident t -> starts_with 47 t = true -> is_unquoted_path_safe t = true.
Proof.
  intros [r [tl [-> [Hi Hf]]]] Hs. unfold is_unquoted_path_safe. rewrite Hs. cbn [negb].
  apply forallb_safe_stop. exact Hf.
Qed.

Lemma format_value_roundtrip t q rest :
  parser_value t q -> delim_ok rest ->
  next_token (format_value t q ++ rest) = LTok (value_token t q) rest.
Proof.
  destruct q; cbn [parser_value value_token]; unfold format_value; intros H Hd.
  - apply quote_roundtrip. exact H.
  - rewrite (ident_shaped_safe _ H). apply unquoted_roundtrip; assumption.
Qed.

(** a value that came out of the lexer, formatted and lexed again, is the same token:
    so formatting the re-lexed value reproduces the same characters (token-level idempotence) *)
Lemma format_value_fixpoint src t q rest0 rest :
  next_token src = LTok (value_token t q) rest0 -> delim_ok rest ->
  next_token (format_value t q ++ rest) = LTok (value_token t q) rest.
Proof. intros H. apply format_value_roundtrip. apply (lexed_value_is_parser_value _ _ _ _ H). Qed.

Lemma route_path_roundtrip t q rest :
  parser_path t q -> delim_ok rest ->
  next_token (format_route_path t q ++ rest) = LTok (value_token t q) rest.
Proof.
  destruct q; cbn [parser_path value_token]; unfold format_route_path; intros H Hd.
  - apply quote_roundtrip. exact H.
  - destruct H as [Hp Hs]. rewrite (plain_slash_path_safe _ Hp Hs). apply plain_roundtrip; assumption.
Qed.

(** the first rune of the written path keeps the parser's top-level dispatch: a quoted path
    starts with 'DQUOTE' (string token => route), an unquoted one with '/' *)
Lemma route_path_head t q : parser_path t q ->
  exists tl, format_route_path t q = (if q then 34 else 47) :: tl.
Proof.
  destruct q; cbn [parser_path]; unfold format_route_path.
  - intros _. unfold quote_string. eauto.
  - intros [Hp Hs]. rewrite (plain_slash_path_safe _ Hp Hs).
    destruct t as [|r tl]; [discriminate|]. cbn in Hs. apply N.eqb_eq in Hs. subst r. eauto.
Qed.

(** * Keyword safety at the token layer.
    The parser ends a multi-value directive only at [kind == tokIdent && isXDirective(text)].
    A formatted value lexes to the identifier [kw] exactly when it already was the unquoted
    identifier [kw]; a quoted value never becomes an identifier. *)
Lemma keyword_safety t q rest kw rest' :
  parser_value t q -> delim_ok rest ->
  (next_token (format_value t q ++ rest) = LTok (TIdent kw) rest' <-> q = false /\ t = kw /\ rest' = rest).
Proof.
  intros Hv Hd. rewrite (format_value_roundtrip _ _ _ Hv Hd). destruct q; cbn [value_token]; split.
  - discriminate.
  - intros [H _]. discriminate.
  - intros [= -> ->]. auto.
  - intros [_ [-> ->]]. reflexivity.
Qed.

(** * A whole directive line of values: [ v1 v2 ... vn\n] lexes back to the same tokens *)

Inductive lexes_to : list rune -> list token -> Prop :=
| lx_eof s rest : next_token s = LTok TEOF rest -> lexes_to s []
| lx_tok s t rest ts : next_token s = LTok t rest -> t <> TEOF -> lexes_to rest ts -> lexes_to s (t :: ts).

Definition format_line (vs : list (list rune * bool)) : list rune :=
  flat_map (fun v => 32 :: format_value (fst v) (snd v)) vs ++ [10].

Lemma line_roundtrip vs :
  Forall (fun v => parser_value (fst v) (snd v)) vs ->
  lexes_to (format_line vs) (map (fun v => value_token (fst v) (snd v)) vs).
Proof.
  unfold format_line. induction 1 as [|[t q] vs Hv _ IH].
  - apply lx_eof with (rest := []). reflexivity.
  - cbn [flat_map map fst snd]. rewrite <- app_assoc.
    set (rest := flat_map (fun v => 32 :: format_value (fst v) (snd v)) vs ++ [10]) in *.
    cbn [app]. apply lx_tok with (rest := rest).
    + rewrite next_token_space by reflexivity. apply format_value_roundtrip; [exact Hv|].
      subst rest. destruct vs; reflexivity.
    + destruct q; discriminate.
    + exact IH.
Qed.

(** * The executable tokenizer is sound for [lexes_to] and never runs out of fuel *)

(** one unfolding of [tokenize_fuel], its six token cases collapsed to EOF / not EOF *)
Lemma tokenize_fuel_step n s :
  match next_token s with
  | LErr e => tokenize_fuel (S n) s = ([], EndErr e)
  | LTok t rest =>
      t = TEOF /\ tokenize_fuel (S n) s = ([], EndEOF) \/
      t <> TEOF /\ tokenize_fuel (S n) s = (let (ts, e) := tokenize_fuel n rest in (t :: ts, e))
  end.
Proof.
  cbn [tokenize_fuel]. destruct (next_token s) as [t rest|e]; [|reflexivity].
  destruct t; [left; split; reflexivity | right; split; [discriminate | reflexivity] ..].
Qed.

Lemma tokenize_fuel_sound n : forall s ts, tokenize_fuel n s = (ts, EndEOF) -> lexes_to s ts.
Proof.
  induction n as [|n IH]; intros s ts; [discriminate|].
  pose proof (tokenize_fuel_step n s) as K. destruct (next_token s) as [t rest|e] eqn:E.
  - destruct K as [[-> K] | [Ht K]]; rewrite K.
    + intros [= <-]. exact (lx_eof _ _ E).
    + destruct (tokenize_fuel n rest) as [ts' e'] eqn:R. intros [= <- ->].
      exact (lx_tok _ _ _ _ E Ht (IH _ _ R)).
  - rewrite K. discriminate.
Qed.

Lemma tokenize_fuel_enough n : forall s, (length s < n)%nat -> snd (tokenize_fuel n s) <> EndFuel.
Proof.
  induction n as [|n IH]; intros s Hn; [lia|].
  pose proof (tokenize_fuel_step n s) as K. destruct (next_token s) as [t rest|e] eqn:E.
  - destruct K as [[_ K] | [Ht K]]; rewrite K; [discriminate|].
    pose proof (proj2 (next_token_spec _ _ _ E) Ht) as Hl.
    specialize (IH rest ltac:(lia)). destruct (tokenize_fuel n rest). exact IH.
  - rewrite K. discriminate.
Qed.

Lemma tokenize_never_out_of_fuel s : snd (tokenize s) <> EndFuel.
Proof. unfold tokenize. apply tokenize_fuel_enough. lia. Qed.

Lemma tokenize_sound s ts : tokenize s = (ts, EndEOF) -> lexes_to s ts.
Proof. apply tokenize_fuel_sound. Qed.

(** * Non-vacuity: the hypotheses of the theorems are met by real values *)

Example ex_plain : plain_ident [101; 110; 118; 58; 84; 79; 75] (* env:TOK *).
Proof. exists 101, [110; 118; 58; 84; 79; 75]. repeat split. repeat constructor. Qed.

Example ex_placeholder : placeholder_ident [123; 36; 88; 58; 100; 125] (* {$X:d} *).
Proof. exists [36; 88; 58; 100]. repeat split; repeat constructor; discriminate. Qed.

Example ex_placeholder_with_quote_and_hash : placeholder_ident [123; 101; 110; 118; 46; 34; 35; 125] (* {env.DQUOTE#} *).
Proof. exists [101; 110; 118; 46; 34; 35]. repeat split; repeat constructor; discriminate. Qed.

(** a value with every escape, a non-ASCII rune and an astral rune; and the empty value *)
Example ex_quote_roundtrip :
  next_token (quote_string [34; 92; 10; 9; 13; 32; 35; 123; 125; 233; 0x1F600] ++ [32; 120])
  = LTok (TString [34; 92; 10; 9; 13; 32; 35; 123; 125; 233; 0x1F600]) [32; 120].
Proof. apply quote_roundtrip. repeat constructor. Qed.

Example ex_empty_quoted : format_value [] true = [34; 34] /\ format_value [] false = [34; 34]
  /\ next_token ([34; 34] ++ [10]) = LTok (TString []) [10].
Proof. repeat split. Qed.

(** an undecodable byte (0xFF) inside an identifier is kept by the lexer and written back raw *)
Example ex_invalid_in_ident :
  next_token ([97; 0x1100FF] ++ [10]) = LTok (TIdent [97; 0x1100FF]) [10]
  /\ format_value [97; 0x1100FF] false = [97; 0x1100FF]
  /\ quote_string [97; 0x1100FF] = [34; 97; 0xFFFD; 34].
Proof. repeat split. Qed.

(** keyword-valued values: [deny] unquoted is an identifier before and after; quoted it is a
    string before and after *)
Example ex_keyword :
  next_token (format_value [100; 101; 110; 121] false ++ [10]) = LTok (TIdent [100; 101; 110; 121]) [10]
  /\ next_token (format_value [100; 101; 110; 121] true ++ [10]) = LTok (TString [100; 101; 110; 121]) [10].
Proof. split; reflexivity. Qed.

Example ex_line :
  lexes_to (format_line [([117], false); ([112; 32; 119], true); ([123; 36; 80; 125], false)])
           [TIdent [117]; TString [112; 32; 119]; TIdent [123; 36; 80; 125]].
Proof.
  apply line_roundtrip.
  apply Forall_cons; [|apply Forall_cons; [|apply Forall_cons; [|apply Forall_nil]]]; cbn [fst snd parser_value].
  - left. exists 117, []. repeat split. repeat constructor.
  - repeat constructor.
  - right. exists [36; 80]. repeat split; repeat constructor; discriminate.
Qed.

Example ex_tokenize :
  tokenize [47; 97; 32; 123; 10; 32; 97; 117; 116; 104; 32; 34; 120; 92; 110; 34; 32; 35; 99; 10; 125]
  = ([TIdent [47; 97]; TLBrace; TIdent [97; 117; 116; 104]; TString [120; 10]; TComment [35; 99]; TRBrace], EndEOF).
Proof. reflexivity. Qed.

Example ex_errors :
  next_token [34; 97] = LErr EUnterminatedString /\ next_token [34; 97; 10; 34] = LErr EUnterminatedString
  /\ next_token [34; 92] = LErr EUnterminatedEscape /\ next_token [0x110080] = LErr EInvalidUtf8
  /\ next_token [123; 36; 0x110080; 125] = LErr EInvalidUtf8
  /\ next_token [123; 36; 97; 32; 125] = LTok TLBrace [36; 97; 32; 125].
Proof. repeat split. Qed.
