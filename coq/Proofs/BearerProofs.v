(** Lemmas about Model/Bearer.v and Model/PullAuthCompile.v. *)
From Coq Require Import List NArith Bool Arith.
From Coq Require Strings.String.
Import Coq.Strings.String.StringSyntax.
Delimit Scope string_scope with string.
From HK Require Import Model.RBytes Model.Bearer Model.PullAuthCompile Proofs.RBytesProofs.
Import ListNotations.
Open Scope N_scope.

Lemma allow_norm_In : forall tokens t, In t (allow_norm tokens) <-> In t tokens /\ t <> [].
Proof.
  intros tokens t. unfold allow_norm. rewrite filter_In, negb_true_iff, is_empty_false. reflexivity.
Qed.

Lemma allow_norm_id : forall tokens, (forall t, In t tokens -> t <> []) -> allow_norm tokens = tokens.
Proof.
  induction tokens as [|a l IH]; intro H; simpl; [reflexivity|].
  assert (Ha : a <> []) by (apply H; left; reflexivity).
  apply is_empty_false in Ha. rewrite Ha. simpl. f_equal. apply IH. intros t Ht. apply H. right. exact Ht.
Qed.

Lemma http_presented_shape : forall vals t,
  http_presented vals = Some t <->
  exists rest, header_get vals = bearer_sp ++ rest /\ t = trim rest /\ t <> [].
Proof.
  intros vals t. unfold http_presented. split.
  - intro H. destruct (is_empty (header_get vals)); [discriminate|].
    destruct (prefixb bearer_sp (header_get vals)) eqn:E1; [|discriminate]. cbn [negb] in H.
    apply prefixb_spec in E1. destruct E1 as [rest Hr]. rewrite Hr, trim_prefix_app in H.
    destruct (is_empty (trim rest)) eqn:E2; [discriminate|]. inversion H; subst t.
    exists rest. split; [exact Hr | split; [reflexivity | apply is_empty_false; exact E2]].
  - intros [rest [Hh [Ht Hne]]]. subst t. apply is_empty_false in Hne.
    rewrite Hh, prefixb_app, trim_prefix_app, Hne. reflexivity.
Qed.

Lemma http_bearer_ok_spec : forall tokens vals,
  http_bearer_ok tokens vals = true <->
  allow_norm tokens = [] \/ exists t, http_presented vals = Some t /\ In t tokens.
Proof.
  intros tokens vals. unfold http_bearer_ok.
  destruct (allow_norm tokens) as [|a l] eqn:E; [split; auto|]. rewrite <- E.
  destruct (http_presented vals) as [t|] eqn:Hp.
  - apply http_presented_shape in Hp. destruct Hp as [_ [_ [_ Hne]]].
    rewrite mem_In, allow_norm_In. split.
    + intros [Hi _]. right. exists t. auto.
    + intros [H | [t' [Ht Hi]]]; [rewrite E in H; discriminate|]. inversion Ht; subst. auto.
  - split; [discriminate|]. intros [H | [t [Ht _]]]; [rewrite E in H|]; discriminate.
Qed.

Lemma http_bearer_sound : forall tokens vals,
  http_bearer_ok tokens vals = true -> allow_norm tokens <> [] ->
  exists t, http_presented vals = Some t /\ In t tokens.
Proof.
  intros tokens vals H Hne. apply http_bearer_ok_spec in H. destruct H as [H|H]; [contradiction | exact H].
Qed.

(** byte equality: any presented token that is not itself a member is refused - in
    particular every proper prefix, proper suffix or case variant of a valid token *)
Lemma near_miss_rejected : forall tokens vals t',
  allow_norm tokens <> [] -> http_presented vals = Some t' -> ~ In t' tokens ->
  http_bearer_ok tokens vals = false.
Proof.
  intros tokens vals t' Hne Hp Hn. apply not_true_is_false. intro E.
  destruct (http_bearer_sound tokens vals E Hne) as [t [Hp' Hi]].
  rewrite Hp in Hp'. inversion Hp'; subst. contradiction.
Qed.

(** only the first Authorization value counts *)
Lemma presented_first_only : forall v rest rest', http_presented (v :: rest) = http_presented (v :: rest').
Proof. reflexivity. Qed.

Lemma grpc_parse_shape : forall v t,
  grpc_parse v = Some t <->
  (7 <= List.length (trim v))%nat /\ lower (firstn 7 (trim v)) = bearer_sp_lower /\
  t = trim (skipn 7 (trim v)) /\ t <> [].
Proof.
  intros v t. unfold grpc_parse. split.
  - intro H. destruct (Nat.ltb (List.length (trim v)) 7) eqn:E1; [discriminate|].
    destruct (beq (lower (firstn 7 (trim v))) bearer_sp_lower) eqn:E2; [|discriminate]. cbn [negb] in H.
    destruct (is_empty (trim (skipn 7 (trim v)))) eqn:E3; [discriminate|]. inversion H; subst t.
    split; [apply Nat.ltb_ge; exact E1|]. split; [apply beq_eq; exact E2|].
    split; [reflexivity | apply is_empty_false; exact E3].
  - intros [Hlen [Hlow [Ht Hne]]]. subst t. apply Nat.ltb_ge in Hlen. apply is_empty_false in Hne.
    rewrite Hlen, Hlow, beq_refl, Hne. reflexivity.
Qed.

Lemma grpc_parse_nonempty : forall v t, grpc_parse v = Some t -> t <> [].
Proof. intros v t H. apply grpc_parse_shape in H. apply H. Qed.

Lemma grpc_tokens_In : forall vals t, In t (grpc_tokens vals) <-> exists v, In v vals /\ grpc_parse v = Some t.
Proof.
  induction vals as [|v vals IH]; intro t; simpl.
  - split; [intros [] | intros [v [[] _]]].
  - assert (Hv : In t (match grpc_parse v with Some x => x :: grpc_tokens vals | None => grpc_tokens vals end)
                 <-> grpc_parse v = Some t \/ In t (grpc_tokens vals)).
    { destruct (grpc_parse v) as [x|]; simpl.
      - split; intros [H|H]; auto; left; congruence.
      - split; [auto | intros [H|H]; [discriminate | exact H]]. }
    rewrite Hv, IH. split.
    + intros [H | [v' [Hi Hp]]]; [exists v | exists v']; auto.
    + intros [v' [[Hv' | Hi] Hp]]; [subst v'; left | right; exists v']; auto.
Qed.

(** the same check over every metadata value *)
Lemma grpc_bearer_ok_spec : forall tokens md,
  grpc_bearer_ok tokens md = true <->
  allow_norm tokens = [] \/
  exists vals v t, md = Some vals /\ In v vals /\ grpc_parse v = Some t /\ In t tokens.
Proof.
  intros tokens md. unfold grpc_bearer_ok.
  destruct (allow_norm tokens) as [|a l] eqn:E; [split; auto|]. rewrite <- E.
  destruct md as [vals|].
  - rewrite existsb_exists. split.
    + intros [t [Ht Hm]]. apply grpc_tokens_In in Ht. destruct Ht as [v [Hv Hp]].
      apply mem_In, allow_norm_In in Hm. right. exists vals, v, t. tauto.
    + intros [H | [vals' [v [t [Hm [Hv [Hp Hi]]]]]]]; [rewrite E in H; discriminate|].
      inversion Hm; subst vals'. exists t. split.
      * apply grpc_tokens_In. exists v. auto.
      * apply mem_In, allow_norm_In. split; [exact Hi | exact (grpc_parse_nonempty v t Hp)].
  - split; [discriminate|]. intros [H | [vals [v [t [Hm _]]]]]; [rewrite E in H|]; discriminate.
Qed.

Lemma grpc_bearer_sound : forall tokens md,
  grpc_bearer_ok tokens md = true -> allow_norm tokens <> [] ->
  exists vals v t, md = Some vals /\ In v vals /\ grpc_parse v = Some t /\ In t tokens.
Proof.
  intros tokens md H Hne. apply grpc_bearer_ok_spec in H. destruct H as [H|H]; [contradiction | exact H].
Qed.

Lemma grpc_no_metadata_rejected : forall tokens, allow_norm tokens <> [] -> grpc_bearer_ok tokens None = false.
Proof. intros tokens H. unfold grpc_bearer_ok. destruct (allow_norm tokens); [contradiction | reflexivity]. Qed.

Lemma lookup_endpoint_some : forall ep rs r, lookup_endpoint ep rs = Some r -> In r rs /\ pr_endpoint r = ep.
Proof.
  intros ep rs. induction rs as [|a rs IH]; intros r H; simpl in H; [discriminate|].
  destruct (beq ep (pr_endpoint a)) eqn:E.
  - inversion H; subst. apply beq_eq in E. split; [left; reflexivity | congruence].
  - destruct (IH r H) as [Hi He]. split; [right; exact Hi | exact He].
Qed.

Lemma lookup_endpoint_finds : forall rs r, In r rs -> exists r', lookup_endpoint (pr_endpoint r) rs = Some r'.
Proof.
  induction rs as [|a rs IH]; intros r H; [destruct H|]. simpl.
  destruct (beq (pr_endpoint r) (pr_endpoint a)) eqn:E; [eauto|].
  destruct H as [H|H]; [subst; rewrite beq_refl in E; discriminate | apply IH; exact H].
Qed.

Lemma lookup_endpoint_map : forall (f : pull_route -> pull_route) ep rs,
  (forall r, pr_endpoint (f r) = pr_endpoint r) ->
  lookup_endpoint ep (map f rs) = option_map f (lookup_endpoint ep rs).
Proof.
  intros f ep rs Hf. induction rs as [|a rs IH]; simpl; [reflexivity|].
  rewrite Hf. destruct (beq ep (pr_endpoint a)); [reflexivity | exact IH].
Qed.

(** the route's own tokens REPLACE the global ones *)
Lemma effective_override : forall c ep r,
  lookup_endpoint ep (a_routes c) = Some r -> pr_tokens r <> [] -> effective c ep = pr_tokens r.
Proof.
  intros c ep r H Hne. unfold effective. rewrite H. destruct (pr_tokens r); [contradiction | reflexivity].
Qed.

Lemma effective_global : forall c ep,
  (forall r, lookup_endpoint ep (a_routes c) = Some r -> pr_tokens r = []) -> effective c ep = a_global c.
Proof.
  intros c ep H. unfold effective. destruct (lookup_endpoint ep (a_routes c)) as [r|] eqn:E; [|reflexivity].
  rewrite (H r eq_refl). reflexivity.
Qed.

Lemma allow_norm_nonempty : forall tokens, allow_norm tokens <> [] -> tokens <> [].
Proof. intros tokens H E. apply H. rewrite E. reflexivity. Qed.

Lemma override_replaces_global : forall c url_path vals r g,
  lookup_endpoint (pull_endpoint url_path) (a_routes c) = Some r ->
  allow_norm (pr_tokens r) <> [] -> ~ In g (pr_tokens r) ->
  http_presented vals = Some g ->
  authorize_pull c url_path vals = false.
Proof.
  intros c url_path vals r g Hl Hne Hn Hp. unfold authorize_pull.
  rewrite (effective_override c _ r Hl (allow_norm_nonempty _ Hne)).
  eapply near_miss_rejected; eassumption.
Qed.

Lemma authorized_has_token : forall c url_path vals,
  authorize_pull c url_path vals = true ->
  allow_norm (effective c (pull_endpoint url_path)) <> [] ->
  exists t, http_presented vals = Some t /\ In t (effective c (pull_endpoint url_path)).
Proof. intros c url_path vals H Hne. exact (http_bearer_sound _ _ H Hne). Qed.

(** The handler skeletons: an unauthorized request is refused before anything else happens. *)
Section Handlers.
Variable store : Type.
Variable run_op : pull_opk -> bytes -> store -> N * store.

Lemma pull_unauthorized_no_effect : forall c method url_path vals st,
  authorize_pull c url_path vals = false ->
  let o := pull_serve store run_op c method url_path vals st in
  o_store _ o = st /\ o_calls _ o = [] /\
  (o_status _ o = 401 \/ (o_status _ o = 405 /\ method <> s2b "POST"%string)).
Proof.
  intros c method url_path vals st H. unfold pull_serve.
  destruct (beq method (s2b "POST"%string)) eqn:E; simpl.
  - rewrite H. simpl. repeat split. left. reflexivity.
  - apply beq_neq in E. repeat split. right. split; [reflexivity | exact E].
Qed.

Lemma worker_unauthorized_no_effect : forall c op ep pre md st,
  authorize_worker c (trim ep) md = false ->
  let o := worker_call store run_op c op ep pre md st in
  o_store _ o = st /\ o_calls _ o = [] /\
  (o_status _ o = g_unauthenticated \/ o_status _ o = g_invalid_argument).
Proof.
  intros c op ep pre md st H. unfold worker_call.
  destruct (is_empty (trim ep) || negb pre); simpl.
  - repeat split. right. reflexivity.
  - rewrite H. simpl. repeat split. left. reflexivity.
Qed.

Variable admin_router : bytes -> bytes -> store -> N * store * bool.

(** tokens configured: every Admin path and method is behind the same check *)
Lemma admin_unauthorized_no_effect : forall c method url_path vals st,
  authorize_admin c vals = false ->
  let o := admin_serve store admin_router c method url_path vals st in
  ad_status _ o = 401 /\ ad_store _ o = st /\ ad_routed _ o = false.
Proof.
  intros c method url_path vals st H. unfold admin_serve. rewrite H. simpl. repeat split.
Qed.

End Handlers.

Lemma allow_norm_loaded : forall (load : bytes -> bytes) refs,
  (forall r, load r <> []) -> refs <> [] -> allow_norm (map load refs) <> [].
Proof.
  intros load refs Hl Hne. rewrite allow_norm_id.
  - destruct refs; [contradiction | discriminate].
  - intros t Ht. apply in_map_iff in Ht. destruct Ht as [r [E _]]. subst. apply Hl.
Qed.

(** loading the secrets commutes with choosing the allowlist: a list of references is
    empty exactly when the list of loaded values is *)
Lemma effective_loaded : forall load admin c ep,
  effective (loaded load admin c) ep =
  map load (effective {| a_global := c_global c; a_admin := admin; a_routes := c_pull_routes c |} ep).
Proof.
  intros load admin c ep. unfold effective, loaded. cbn [a_routes a_global].
  rewrite lookup_endpoint_map by reflexivity.
  destruct (lookup_endpoint ep (c_pull_routes c)) as [r|]; [|reflexivity].
  cbn [option_map pr_tokens]. destruct (pr_tokens r); reflexivity.
Qed.

(** the rule of Compile: a pull route without tokens of its own forces global tokens *)
Lemma compile_rule : forall c r,
  compile_ok c = true -> In r (c_pull_routes c) -> pr_tokens r = [] -> c_global c <> [].
Proof.
  intros c r Hok Hr Et Eg. unfold compile_ok in Hok.
  rewrite !andb_true_iff, !negb_true_iff in Hok. destruct Hok as [_ Herr].
  unfold needs_allowlist_error in Herr. rewrite Eg in Herr.
  assert (Hhas : has_pull_routes c = true).
  { unfold has_pull_routes. destruct (c_pull_routes c); [destruct Hr | reflexivity]. }
  assert (Hmiss : routes_missing_auth c = true).
  { unfold routes_missing_auth. apply existsb_exists. exists r. split; [exact Hr|]. rewrite Et. reflexivity. }
  rewrite Hhas, Hmiss in Herr. discriminate.
Qed.

(** a configuration that compiles leaves no pull route open: the effective allowlist of
    every pull endpoint is non-empty (given that loading a secret never yields "") *)
Lemma compiled_never_open : forall (load : bytes -> bytes) admin c,
  compile_ok c = true -> (forall ref, load ref <> []) ->
  forall r, In r (c_pull_routes c) ->
  allow_norm (effective (loaded load admin c) (pr_endpoint r)) <> [].
Proof.
  intros load admin c Hok Hl r Hr. rewrite effective_loaded. apply allow_norm_loaded; [exact Hl|].
  unfold effective. cbn [a_routes a_global].
  destruct (lookup_endpoint_finds _ _ Hr) as [r' Hr']. rewrite Hr'.
  apply lookup_endpoint_some in Hr'. destruct Hr' as [Hi' _].
  destruct (pr_tokens r') as [|t ts] eqn:Et; [exact (compile_rule c r' Hok Hi' Et) | discriminate].
Qed.
