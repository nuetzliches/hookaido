(** The token bucket of Model/TokenBucket.v (C12).  The potential [budget b h] - the tokens in hand plus what can be refilled
    until the horizon [h] - pays for every admitted call ([allow_at_step]); summed over the calls of a window it gives the
    bounds ([admitted_le_budget], [window_accounting]); [limiter_choice] ties [allow_ingress] to the one limiter it consults. *)
From Coq Require Import ZArith QArith Qminmax Lqa Lia Bool List Sorted.
From HK Require Import Model.Retry Model.TokenBucket Proofs.RetryProofs.
Import ListNotations.
Open Scope Q_scope.

Definition valid (b : bucket) : Prop := 0 <= tb_rate b /\ 0 <= tb_burst b.
Definition inv (b : bucket) : Prop := 0 <= tb_tokens b /\ tb_tokens b <= tb_burst b.
Definition nondecreasing (ts : list Q) : Prop := StronglySorted Qle ts.

Definition bq (d : bool) : Q := if d then 1 else 0.

(** The tokens in hand plus what can still be refilled until [h].  Every admitted call is paid
    out of it ([allow_at_step]); all the rate bounds below are this one fact summed over a run. *)
Definition budget (b : bucket) (h : Q) : Q := tb_tokens b + tb_rate b * (h - tb_last b).

Lemma budget_nonneg b h : valid b -> inv b -> tb_last b <= h -> 0 <= budget b h.
Proof. intros [Hr _] [Ht _] Hl. unfold budget. nra. Qed.

Lemma max_dur_pos : 0 < max_dur_s.
Proof. reflexivity. Qed.

(** time.Time.Sub saturates, but keeps the sign and never exceeds the true difference *)
Lemma sub_sat_pos t l : 0 < sub_sat t l <-> l < t.
Proof.
  unfold sub_sat. rewrite Q.max_lt_iff, Q.min_glb_lt_iff. pose proof max_dur_pos. lra.
Qed.

Lemma sub_sat_le t l : l < t -> sub_sat t l <= t - l.
Proof.
  intros H. pose proof max_dur_pos. apply Q.max_lub; [lra | apply Q.le_min_l].
Qed.

Lemma refill_backwards b t : t <= tb_last b -> refill b t = b.
Proof.
  intros H. unfold refill. cbv zeta.
  destruct (Qltb 0 (sub_sat t (tb_last b))) eqn:E; [|reflexivity].
  apply Qltb_true in E. apply (proj1 (sub_sat_pos _ _)) in E. lra.
Qed.

Lemma refill_params b t : tb_rate (refill b t) = tb_rate b /\ tb_burst (refill b t) = tb_burst b.
Proof. unfold refill. cbv zeta. destruct (Qltb 0 _); split; reflexivity. Qed.

(** A refill never increases the budget: what it adds to the tokens it takes from the time
    still to come, and the cap at [burst] only loses. *)
Lemma refill_spec b t : valid b -> inv b ->
  tb_last (refill b t) == Qmax (tb_last b) t /\
  inv (refill b t) /\
  forall h, budget (refill b t) h <= budget b h.
Proof.
  intros [Hr Hb] [Ht0 Ht1]. destruct (Qlt_le_dec (tb_last b) t) as [Hlt|Hle].
  - pose proof (sub_sat_le _ _ Hlt) as Hdt. pose proof (proj2 (sub_sat_pos _ _) Hlt) as Hpos.
    unfold refill, inv, budget. cbv zeta. rewrite (proj2 (Qltb_true _ _) Hpos).
    set (dt := sub_sat t (tb_last b)) in *. cbn [tb_rate tb_burst tb_tokens tb_last].
    (* what is added is not negative, and [sub_sat] only shortens the time gained *)
    assert (Hadd : 0 <= dt * tb_rate b <= tb_rate b * (t - tb_last b)) by (split; nra).
    split; [symmetry; apply Q.max_r; lra|].
    destruct (Qltb (tb_burst b) (tb_tokens b + dt * tb_rate b)) eqn:Ec.
    + apply Qltb_true in Ec. split; [split; lra | intros h; lra].
    + apply Qltb_false in Ec. split; [split; lra | intros h; lra].
  - rewrite (refill_backwards b t Hle).
    split; [symmetry; apply Q.max_l; exact Hle|]. split; [split; assumption | intros h; apply Qle_refl].
Qed.

Lemma allow_at_params b t :
  tb_rate (fst (allow_at b t)) = tb_rate b /\ tb_burst (fst (allow_at b t)) = tb_burst b /\
  tb_last (fst (allow_at b t)) = tb_last (refill b t).
Proof.
  rewrite <- (proj1 (refill_params b t)), <- (proj2 (refill_params b t)).
  (* with [refill b t] left in place, checking the proof term evaluates it symbolically *)
  unfold allow_at. generalize (refill b t). intros b1. cbv zeta.
  destruct (Qltb (tb_tokens b1) 1); repeat split.
Qed.

Lemma bq_nonneg d : 0 <= bq d.
Proof. destruct d; discriminate. Qed.

Lemma allow_at_takes b t : 0 <= tb_tokens (refill b t) ->
  0 <= tb_tokens (fst (allow_at b t)) /\
  tb_tokens (fst (allow_at b t)) + bq (snd (allow_at b t)) == tb_tokens (refill b t).
Proof.
  unfold allow_at. generalize (refill b t). intros b1 H0. cbv zeta.
  destruct (Qltb (tb_tokens b1) 1) eqn:E; cbn [fst snd bq tb_tokens].
  - split; lra.
  - apply Qltb_false in E. split; lra.
Qed.

Lemma allow_at_step b t : valid b -> inv b ->
  let b' := fst (allow_at b t) in
  let d := snd (allow_at b t) in
  valid b' /\ inv b' /\ tb_last b' == Qmax (tb_last b) t /\
  tb_tokens b' + bq d <= tb_burst b /\
  forall h, bq d + budget b' h <= budget b h.
Proof.
  intros Hv Hi. destruct (refill_spec b t Hv Hi) as (Hl & [H0 H1] & Hp).
  destruct (refill_params b t) as [Hr1 Hb1]. rewrite Hb1 in H1.
  destruct (allow_at_params b t) as (Hr & Hb & Hl'). destruct (allow_at_takes b t H0) as [H0' Ht].
  pose proof (bq_nonneg (snd (allow_at b t))) as Hd.
  cbv zeta. unfold valid, inv, budget. rewrite Hr, Hb, Hl'.
  split; [exact Hv|]. split; [split; lra|]. split; [exact Hl|]. split; [lra|].
  intros h. specialize (Hp h). unfold budget in Hp. rewrite Hr1 in Hp. lra.
Qed.

Lemma run_cons b t rest : run b (t :: rest) =
  (fst (run (fst (allow_at b t)) rest), snd (allow_at b t) :: snd (run (fst (allow_at b t)) rest)).
Proof. cbn [run]. destruct (allow_at b t) as [b1 d]. cbn [fst snd]. destruct (run b1 rest). reflexivity. Qed.

Lemma run_params ts : forall b,
  tb_rate (fst (run b ts)) = tb_rate b /\ tb_burst (fst (run b ts)) = tb_burst b.
Proof.
  induction ts as [|t rest IH]; intros b; [split; reflexivity|].
  rewrite run_cons. cbn [fst]. destruct (IH (fst (allow_at b t))) as [-> ->].
  destruct (allow_at_params b t) as (Hr & Hb & _). split; assumption.
Qed.

Lemma run_inv ts : forall b, valid b -> inv b -> valid (fst (run b ts)) /\ inv (fst (run b ts)).
Proof.
  induction ts as [|t rest IH]; intros b Hv Hi; [split; assumption|].
  rewrite run_cons. cbn [fst]. destruct (allow_at_step b t Hv Hi) as (Hv1 & Hi1 & _). apply IH; assumption.
Qed.

Lemma new_bucket_ok rps burst now :
  valid (new_bucket rps burst now) /\ inv (new_bucket rps burst now) /\
  1 <= tb_burst (new_bucket rps burst now) /\ 0 < tb_rate (new_bucket rps burst now).
Proof.
  unfold new_bucket, valid, inv. cbv zeta. cbn [tb_rate tb_burst tb_tokens tb_last].
  assert (Hb : 1 <= (if (burst <=? 0)%Z then 1 else inject_Z burst)).
  { destruct (Z.leb_spec burst 0); [lra|]. change 1 with (inject_Z 1). rewrite <- Zle_Qle. lia. }
  assert (Hr : 0 < (if Qle_bool rps 0 then 1 else rps)).
  { destruct (Qle_bool rps 0) eqn:E; [lra|]. apply Qnot_le_lt. intros H. apply Qle_bool_iff in H. congruence. }
  repeat split; lra.
Qed.

Lemma bucket_inv : forall rps burst now ts,
  let b := fst (run (new_bucket rps burst now) ts) in
  0 <= tb_tokens b /\ tb_tokens b <= tb_burst b /\ tb_burst b = tb_burst (new_bucket rps burst now).
Proof.
  intros rps burst now ts b. destruct (new_bucket_ok rps burst now) as (Hv & Hi & _).
  destruct (run_inv ts _ Hv Hi) as [_ [H0 H1]]. destruct (run_params ts (new_bucket rps burst now)) as [_ Hb].
  repeat split; assumption.
Qed.

Lemma admitted_cons b t rest :
  inject_Z (admitted b (t :: rest)) == bq (snd (allow_at b t)) + inject_Z (admitted (fst (allow_at b t)) rest).
Proof.
  cbn [admitted]. destruct (allow_at b t) as [b1 [|]]; cbn [fst snd bq]; rewrite inject_Z_plus; reflexivity.
Qed.

Lemma admitted_in_cons a c b t rest : admitted_in a c b (t :: rest) =
  ((if snd (allow_at b t) && in_window a c t then 1 else 0) + admitted_in a c (fst (allow_at b t)) rest)%Z.
Proof. cbn [admitted_in]. destruct (allow_at b t). reflexivity. Qed.

Lemma admitted_in_cons_le a c b t rest :
  inject_Z (admitted_in a c b (t :: rest)) <=
  bq (snd (allow_at b t)) + inject_Z (admitted_in a c (fst (allow_at b t)) rest).
Proof.
  rewrite admitted_in_cons, inject_Z_plus. apply Qplus_le_l.
  destruct (snd (allow_at b t)), (in_window a c t); compute; discriminate.
Qed.

Lemma out_of_window a c t : t < a \/ c < t -> in_window a c t = false.
Proof.
  intros H. unfold in_window. apply andb_false_iff.
  destruct H as [H|H]; [left|right]; apply not_true_is_false; rewrite Qle_bool_iff; lra.
Qed.

Lemma admitted_in_cons_out a c b t rest : t < a \/ c < t ->
  admitted_in a c b (t :: rest) = admitted_in a c (fst (allow_at b t)) rest.
Proof. intros H. rewrite admitted_in_cons, (out_of_window a c t H), andb_false_r. reflexivity. Qed.

Lemma admitted_in_run : forall ts a c b, admitted_in a c b ts = count_window a c ts (snd (run b ts)).
Proof.
  induction ts as [|t rest IH]; intros a c b; [reflexivity|].
  rewrite admitted_in_cons, run_cons, IH. cbn [snd count_window]. reflexivity.
Qed.

Lemma admitted_in_nonneg : forall ts a c b, (0 <= admitted_in a c b ts)%Z.
Proof.
  induction ts as [|t rest IH]; intros a c b; [cbn; lia|].
  rewrite admitted_in_cons. specialize (IH a c (fst (allow_at b t))). destruct (_ && _); lia.
Qed.

Lemma admitted_in_none : forall ts a c b, Forall (fun t => c < t) ts -> admitted_in a c b ts = 0%Z.
Proof.
  induction ts as [|t rest IH]; intros a c b HF; [reflexivity|].
  inversion HF as [|x l Hx Hl]. subst. rewrite admitted_in_cons_out by (right; exact Hx). apply IH. exact Hl.
Qed.

Lemma sorted_above t rest c : nondecreasing (t :: rest) -> c < t -> Forall (fun x => c < x) (t :: rest).
Proof.
  intros Hs Hc. apply StronglySorted_inv in Hs. destruct Hs as [_ HF]. constructor; [exact Hc|].
  eapply Forall_impl; [|exact HF]. cbv beta. intros x Hx. lra.
Qed.

(** From any state, the calls admitted inside [a, c] are paid for by the budget until any
    horizon [h] not before [c]: calls after [c] are not counted, and since the times are sorted
    nothing counted follows them. *)
Lemma window_accounting : forall ts a c b h,
  valid b -> inv b -> nondecreasing ts -> tb_last b <= h -> c <= h ->
  inject_Z (admitted_in a c b ts) <= budget b h.
Proof.
  induction ts as [|t rest IH]; intros a c b h Hv Hi Hs Hl Hc.
  - apply budget_nonneg; assumption.
  - destruct (Qlt_le_dec c t) as [Hct|Htc].
    + rewrite (admitted_in_none _ a c b (sorted_above _ _ _ Hs Hct)). apply budget_nonneg; assumption.
    + destruct (allow_at_step b t Hv Hi) as (Hv1 & Hi1 & Hl1 & _ & Hp).
      apply StronglySorted_inv in Hs. destruct Hs as [Hs _].
      assert (Hl1h : tb_last (fst (allow_at b t)) <= h) by (rewrite Hl1; apply Q.max_lub; lra).
      pose proof (IH a c _ h Hv1 Hi1 Hs Hl1h Hc). pose proof (admitted_in_cons_le a c b t rest).
      specialize (Hp h). lra.
Qed.

Lemma window_bound_from : forall ts a c b,
  valid b -> inv b -> nondecreasing ts -> a <= c ->
  inject_Z (admitted_in a c b ts) <= tb_burst b + tb_rate b * (c - a).
Proof.
  induction ts as [|t rest IH]; intros a c b Hv Hi Hs Hac.
  - destruct Hv as [Hr Hb]. change (0 <= tb_burst b + tb_rate b * (c - a)). nra.
  - destruct (allow_at_step b t Hv Hi) as (Hv1 & Hi1 & Hl1 & Hb1 & _).
    destruct (allow_at_params b t) as (Hr & Hb & _).
    apply StronglySorted_inv in Hs. destruct Hs as [Hs _].
    destruct (Qlt_le_dec t a) as [Hta|Hat].
    + (* before the window: not counted, and rate and burst are those of the next state *)
      rewrite admitted_in_cons_out by (left; exact Hta). rewrite <- Hr, <- Hb. apply IH; assumption.
    + (* The first call not before [a].  After it at most [burst] is in hand, counting the token
         it took, and [last] is not before [a]; so the budget until the horizon
         [last + (c - a)], which is not before [c], is at most [burst + rate * (c - a)]. *)
      set (b1 := fst (allow_at b t)) in *.
      assert (Hal : a <= tb_last b1) by (rewrite Hl1; pose proof (Q.le_max_r (tb_last b) t); lra).
      assert (Hacc : inject_Z (admitted_in a c b1 rest) <= budget b1 (tb_last b1 + (c - a)))
        by (apply window_accounting; try assumption; lra).
      unfold budget in Hacc. rewrite Hr in Hacc.
      pose proof (admitted_in_cons_le a c b t rest) as Hcons. fold b1 in Hcons. lra.
Qed.

Lemma window_bound : forall rps burst now ts a c,
  nondecreasing ts -> a <= c ->
  let b0 := new_bucket rps burst now in
  inject_Z (count_window a c ts (snd (run b0 ts))) <= tb_burst b0 + tb_rate b0 * (c - a).
Proof.
  intros rps burst now ts a c Hs Hac b0. rewrite <- admitted_in_run.
  destruct (new_bucket_ok rps burst now) as (Hv & Hi & _). apply window_bound_from; assumption.
Qed.

Lemma max_time_ge : forall ts m, m <= max_time m ts.
Proof.
  induction ts as [|t rest IH]; intros m; cbn [max_time]; [lra|].
  specialize (IH (Qmax m t)). pose proof (Q.le_max_l m t). lra.
Qed.

Lemma max_time_ub : forall ts m, Forall (fun t => t <= max_time m ts) ts.
Proof.
  induction ts as [|t rest IH]; intros m; constructor; cbn [max_time]; [|apply IH].
  eapply Qle_trans; [apply Q.le_max_r | apply max_time_ge].
Qed.

(** Whatever the order of the calls, those admitted are paid for by the budget until any horizon
    that no call and no earlier [last] exceeds: time that runs backwards earns nothing. *)
Lemma admitted_le_budget : forall ts b h,
  valid b -> inv b -> tb_last b <= h -> Forall (fun t => t <= h) ts ->
  inject_Z (admitted b ts) <= budget b h.
Proof.
  induction ts as [|t rest IH]; intros b h Hv Hi Hl Hts.
  - apply budget_nonneg; assumption.
  - inversion Hts as [|x l Ht Hrest]. subst.
    destruct (allow_at_step b t Hv Hi) as (Hv1 & Hi1 & Hl1 & _ & Hp).
    assert (Hl1h : tb_last (fst (allow_at b t)) <= h) by (rewrite Hl1; apply Q.max_lub; assumption).
    pose proof (IH _ h Hv1 Hi1 Hl1h Hrest). rewrite admitted_cons. specialize (Hp h). lra.
Qed.

Lemma find_set_route : forall l r r' nb, find_route r' (set_route r nb l) =
  if (r' =? r)%Z then option_map (fun _ => nb) (find_route r l) else find_route r' l.
Proof.
  induction l as [|[k b0] tl IH]; intros r r' nb; [destruct (r' =? r)%Z; reflexivity|].
  cbn [set_route find_route]. destruct (k =? r)%Z eqn:E; cbn [find_route].
  - apply Z.eqb_eq in E. subst k. rewrite (Z.eqb_sym r r'). destruct (r' =? r)%Z; reflexivity.
  - rewrite IH. destruct (r' =? r)%Z eqn:E2; [|reflexivity].
    apply Z.eqb_eq in E2. subst r'. rewrite E. reflexivity.
Qed.

Lemma find_set_same l r nb b : find_route r l = Some b -> find_route r (set_route r nb l) = Some nb.
Proof. intros H. rewrite find_set_route, Z.eqb_refl, H. reflexivity. Qed.

Lemma find_set_other l r r' nb : r' <> r -> find_route r' (set_route r nb l) = find_route r' l.
Proof. intros Hne. rewrite find_set_route, (proj2 (Z.eqb_neq r' r) Hne). reflexivity. Qed.

Lemma find_set_none : forall l r r' nb, find_route r' l = None -> find_route r' (set_route r nb l) = None.
Proof.
  intros l r r' nb H. rewrite find_set_route. destruct (r' =? r)%Z eqn:E; [|exact H].
  apply Z.eqb_eq in E. subst r'. rewrite H. reflexivity.
Qed.

(** allowIngress consults the route's own limiter iff the route declares one, otherwise the
    global one iff it exists, otherwise admits; the limiters it did not consult are untouched. *)
Lemma limiter_choice : forall ls r t,
  (forall b, find_route r (l_routes ls) = Some b ->
      snd (allow_ingress ls r t) = snd (allow_at b t) /\
      find_route r (l_routes (fst (allow_ingress ls r t))) = Some (fst (allow_at b t)) /\
      l_global (fst (allow_ingress ls r t)) = l_global ls /\
      (forall r', r' <> r -> find_route r' (l_routes (fst (allow_ingress ls r t))) = find_route r' (l_routes ls))) /\
  (find_route r (l_routes ls) = None -> forall g, l_global ls = Some g ->
      snd (allow_ingress ls r t) = snd (allow_at g t) /\
      l_global (fst (allow_ingress ls r t)) = Some (fst (allow_at g t)) /\
      l_routes (fst (allow_ingress ls r t)) = l_routes ls) /\
  (find_route r (l_routes ls) = None -> l_global ls = None -> allow_ingress ls r t = (ls, true)).
Proof.
  intros ls r t. unfold allow_ingress. destruct (find_route r (l_routes ls)) as [b0|] eqn:Hf.
  - split; [|split; discriminate]. intros b [= <-].
    destruct (allow_at b0 t) as [b' d]. cbn [fst snd l_routes l_global]. repeat split.
    + eapply find_set_same. exact Hf.
    + intros r' Hne. apply find_set_other. exact Hne.
  - split; [discriminate|]. split.
    + intros _ g ->. destruct (allow_at g t). repeat split.
    + intros _ ->. reflexivity.
Qed.

Lemma other_route_untouched ls k t r : r <> k ->
  find_route r (l_routes (fst (allow_ingress ls k t))) = find_route r (l_routes ls).
Proof.
  intros Hne. unfold allow_ingress. destruct (find_route k (l_routes ls)) as [bk|].
  - destruct (allow_at bk t). cbn [fst l_routes]. apply find_set_other. exact Hne.
  - destruct (l_global ls) as [g|]; [destruct (allow_at g t)|]; reflexivity.
Qed.

Lemma run_ingress_cons ls k t rest : run_ingress ls ((k, t) :: rest) =
  (fst (run_ingress (fst (allow_ingress ls k t)) rest),
   snd (allow_ingress ls k t) :: snd (run_ingress (fst (allow_ingress ls k t)) rest)).
Proof.
  cbn [run_ingress]. destruct (allow_ingress ls k t) as [ls1 d]. cbn [fst snd].
  destruct (run_ingress ls1 rest). reflexivity.
Qed.

(** projection onto route [r]: the times of its requests and the decisions taken for them.
    Through any request sequence these decisions are exactly [run] of r's own limiter on those
    times (C12_route_projection), so [window_bound] applies to them; requests of other routes do
    not disturb it. *)
Fixpoint times_of (r : Z) (reqs : list (Z * Q)) : list Q :=
  match reqs with
  | [] => []
  | (k, t) :: rest => if (k =? r)%Z then t :: times_of r rest else times_of r rest
  end.

Fixpoint decisions_of (r : Z) (reqs : list (Z * Q)) (ds : list bool) : list bool :=
  match reqs, ds with
  | (k, _) :: rest, d :: ds' => if (k =? r)%Z then d :: decisions_of r rest ds' else decisions_of r rest ds'
  | _, _ => []
  end.

(** the same for the global limiter: it sees exactly the requests of routes without a limiter of
    their own *)
Definition has_own (ls : limiters) (r : Z) : bool :=
  match find_route r (l_routes ls) with Some _ => true | None => false end.

Fixpoint times_global (ls : limiters) (reqs : list (Z * Q)) : list Q :=
  match reqs with
  | [] => []
  | (k, t) :: rest => if has_own ls k then times_global ls rest else t :: times_global ls rest
  end.

Fixpoint decisions_global (ls : limiters) (reqs : list (Z * Q)) (ds : list bool) : list bool :=
  match reqs, ds with
  | (k, _) :: rest, d :: ds' => if has_own ls k then decisions_global ls rest ds' else d :: decisions_global ls rest ds'
  | _, _ => []
  end.

Lemma has_own_step ls k t r : has_own (fst (allow_ingress ls k t)) r = has_own ls r.
Proof.
  unfold has_own, allow_ingress. destruct (find_route k (l_routes ls)) as [bk|] eqn:Fk.
  - destruct (allow_at bk t) as [b' d']. cbn [fst l_routes].
    destruct (Z.eq_dec r k) as [->|Hne].
    + rewrite (find_set_same _ _ _ _ Fk), Fk. reflexivity.
    + rewrite find_set_other by exact Hne. reflexivity.
  - destruct (l_global ls) as [g|]; [destruct (allow_at g t)|]; reflexivity.
Qed.

(** Which routes have a limiter of their own never changes ([has_own_step]), so the requests the
    global limiter sees can be told from any earlier state [ls0] of the limiters. *)
Lemma global_projection_from : forall reqs ls0 ls g,
  (forall r, has_own ls r = has_own ls0 r) -> l_global ls = Some g ->
  decisions_global ls0 reqs (snd (run_ingress ls reqs)) = snd (run g (times_global ls0 reqs)).
Proof.
  induction reqs as [|[k t] rest IH]; intros ls0 ls g Hown Hg; [reflexivity|].
  rewrite run_ingress_cons. cbn [snd decisions_global times_global].
  assert (Hown1 : forall r, has_own (fst (allow_ingress ls k t)) r = has_own ls0 r)
    by (intros r; rewrite has_own_step; apply Hown).
  destruct (limiter_choice ls k t) as (H1 & H2 & _).
  rewrite <- (Hown k). unfold has_own. destruct (find_route k (l_routes ls)) as [bk|] eqn:Fk.
  - apply (IH ls0 _ g Hown1). destruct (H1 bk eq_refl) as (_ & _ & -> & _). exact Hg.
  - destruct (H2 eq_refl g Hg) as (Hd & Hg1 & _).
    rewrite run_cons. cbn [snd]. rewrite Hd, (IH ls0 _ _ Hown1 Hg1). reflexivity.
Qed.

(** non-vacuity: rps 0.2, burst 3: three calls pass, the fourth is refused, one token is back
    after exactly 5 s and not a nanosecond earlier *)
Example bucket_example :
  snd (run (new_bucket (1 # 5) 3 0) [0; 0; 0; 0; 4999999999 # 1000000000; 5; 5; 100; 100])
  = [true; true; true; false; false; true; false; true; true].
Proof. vm_compute. reflexivity. Qed.

Example window_example :
  count_window 0 5 [0; 0; 0; 0; 5; 5] (snd (run (new_bucket (1 # 5) 3 0) [0; 0; 0; 0; 5; 5])) = 4%Z /\
  tb_burst (new_bucket (1 # 5) 3 0) + tb_rate (new_bucket (1 # 5) 3 0) * (5 - 0) == 4.
Proof. vm_compute. repeat split. Qed.
