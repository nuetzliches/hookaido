(** C07, queue part: the content of a message (id, route, target, received_at, payload handle,
    header handle, trace handle) never changes while the message is stored - through
    dequeue, nack/redelivery, lease expiry, requeue, cancel/resume, pruning of *other*
    messages and a restart ([Reopen]).  Proved for every operation of Model/Queue.v, both
    flavours, every oracle. *)
From Coq Require Import List ZArith NArith Bool.
From HK Require Import Model.Queue Proofs.QueueBase Proofs.QueueInvStep Proofs.QueueStep.
Import ListNotations.
Open Scope Z_scope.

(** the body of Proofs/QueueBase.v's [same_imm]: a per-message function with [imm_pres] keeps the content *)
Definition same_content (m m' : msg) : Prop :=
  m_id m = m_id m' /\ m_route m = m_route m' /\ m_target m = m_target m' /\ m_recv m = m_recv m' /\
  m_body m = m_body m' /\ m_hdr m = m_hdr m' /\ m_trace m = m_trace m'.

Definition pres (l l' : list msg) : Prop :=
  forall m', In m' l' -> exists m, In m l /\ same_content m m'.

Lemma pres_refl : forall l, pres l l.
Proof. intros l m H. exists m. split; [exact H | apply same_imm_refl]. Qed.

Lemma pres_trans : forall a b c, pres a b -> pres b c -> pres a c.
Proof.
  intros a b c H1 H2 m Hm. destruct (H2 m Hm) as [m1 [Hin1 Hc1]]. destruct (H1 m1 Hin1) as [m0 [Hin0 Hc0]].
  exists m0. split; [exact Hin0 | exact (same_imm_trans _ _ _ Hc0 Hc1)].
Qed.

Lemma incl_pres : forall l l', (forall m, In m l' -> In m l) -> pres l l'.
Proof. intros l l' H m Hm. exists m. split; [apply H, Hm | apply same_imm_refl]. Qed.

Lemma apply_pm_pres : forall pm l, imm_pres pm -> pres l (apply_pm pm l).
Proof.
  intros pm l Hpm m' H. apply apply_pm_In in H. destruct H as [m [Hm E]].
  exists m. split; [exact Hm | exact (Hpm m m' E)].
Qed.

Lemma prune_pres : forall c now hint s, pres (msgs s) (msgs (prune c now hint s)).
Proof. intros. apply incl_pres, prune_sub. Qed.

Lemma lease_one_pres : forall c now k l ms ms' out, lease_one c now k l ms = (ms', out) -> pres ms ms'.
Proof.
  intros c now k l ms ms' out H. unfold lease_one in H.
  destruct (find_lease l ms) as [m|]; [|inversion H; subst; apply pres_refl].
  destruct (negb (is_leased m)); [inversion H; subst; apply pres_refl|].
  destruct (m_until m <=? now); inversion H; subst; apply apply_pm_pres; apply pm_on_id_imm;
    [apply pm_release_imm | apply lease_effect_imm].
Qed.

Lemma lease_batch_pres : forall c now k ls ms ms' n cs, lease_batch c now k ls ms = (ms', n, cs) -> pres ms ms'.
Proof.
  induction ls as [|l tl IH]; intros ms ms' n cs H; simpl in H.
  - inversion H; subst. apply pres_refl.
  - destruct l as [x p| |].
    + destruct (lease_one c now k x ms) as [ms1 out] eqn:E1.
      apply lease_one_pres in E1.
      destruct out; destruct (lease_batch c now k tl ms1) as [[ms2 n2] cs2] eqn:E2;
        inversion H; subst; eapply pres_trans; eauto.
    + destruct (lease_batch c now k tl ms) as [[ms2 n2] cs2] eqn:E2. inversion H; subst. eauto.
    + destruct (lease_batch c now k tl ms) as [[ms2 n2] cs2] eqn:E2. inversion H; subst. eauto.
Qed.

(** enqueue appends all the new messages to what is left of the old ones, or stores nothing *)
Lemma step_enqueue_stored : forall fl c now single es o s s' r,
  step_enqueue fl c now single es o s = (s', r) ->
  (es = [] /\ s' = s /\ r = RCount 0 0 false) \/
  (assign_ids es (o_genids o) = None /\ s' = s /\ r = RBadOracle) \/
  (s' = prune c now (o_gone o) s /\ exists e, r = RErr e) \/
  (exists ies kept, assign_ids es (o_genids o) = Some ies /\
     msgs s' = kept ++ map (fun p => mk_msg now (fst p) (snd p)) ies /\
     (forall m, In m kept -> In m (msgs s)) /\
     r = if single then RUnit else RCount (Z.of_nat (length ies)) 0 false).
Proof.
  intros fl c now single es o s s' r H.
  destruct (QueueInvStep.step_enqueue_cases _ _ _ _ _ _ _ _ _ H) as [E | _ E | e _ | ies l2 _ EA Room _ _]; [auto | auto | eauto 6 |].
  right. right. right. exists ies, l2. split; [exact EA|]. split; [reflexivity|]. split; [|reflexivity].
  (* the room is what eviction leaves of the pruned list *)
  destruct (enq_room_spec _ _ _ _ _ _ Room) as [vs [-> _]]. intros m Hm.
  apply apply_pm_In in Hm. destruct Hm as [m0 [H0 Em]]. apply pm_remove_ids_same in Em. subst m0.
  apply (prune_sub c now (o_gone o) s m H0).
Qed.

Definition created (x : op) (o : oracle) (m : msg) : Prop :=
  exists now es ies i e,
    (x = EnqueueBatch now es \/ (exists e1, es = [e1] /\ x = Enqueue now e1)) /\
    assign_ids es (o_genids o) = Some ies /\ In (i, e) ies /\ m = mk_msg now i e.

Lemma step_enqueue_content : forall fl c now single es o s m',
  In m' (msgs (fst (step_enqueue fl c now single es o s))) ->
  (exists m, In m (msgs s) /\ same_content m m') \/
  (exists ies i e, assign_ids es (o_genids o) = Some ies /\ In (i, e) ies /\ m' = mk_msg now i e).
Proof.
  intros fl c now single es o s m' H.
  destruct (step_enqueue fl c now single es o s) as [s' r] eqn:E. simpl in H.
  apply step_enqueue_stored in E.
  destruct E as [[_ [-> _]] | [[_ [-> _]] | [[-> _] | [ies [kept [Ha [Hm [Hk _]]]]]]]].
  - left. exact (pres_refl _ _ H).
  - left. exact (pres_refl _ _ H).
  - left. exact (prune_pres _ _ _ _ _ H).
  - rewrite Hm in H. apply in_app_or in H. destruct H as [H | H].
    + left. exact (incl_pres _ _ Hk _ H).
    + right. apply in_map_iff in H. destruct H as [[i e] [Hme Hin]]. exists ies, i, e. auto.
Qed.

Theorem step_content : forall fl c s x o m',
  In m' (msgs (fst (step fl c s x o))) ->
  (exists m, In m (msgs s) /\ same_content m m') \/ created x o m'.
Proof.
  intros fl c s x o m' H. destruct x; cbn [step] in H.
  - apply step_enqueue_content in H. destruct H as [H | [ies [i [e0 [Ha [Hin Hm]]]]]]; auto.
    right. exists now, [e], ies, i, e0. repeat split; auto. right. exists e. auto.
  - apply step_enqueue_content in H. destruct H as [H | [ies [i [e0 [Ha [Hin Hm]]]]]]; auto.
    right. exists now, es, ies, i, e0. repeat split; auto.
  - (* Dequeue: the state selected from, then the leases *)
    left. rewrite step_dequeue_eq in H. cbv zeta in H.
    assert (P2 : pres (msgs s) (msgs (deq_pre fl c now o s))) by (rewrite deq_pre_msgs; apply apply_pm_pres, deq_pre_pm_imm).
    destruct (valid_pick _ _ _ _ _ _ _); simpl in H.
    + apply (pres_trans _ _ _ P2 (apply_pm_pres _ _ (pm_lease_imm now (eff_ttl ttl) (o_picked o)))). exact H.
    + apply P2. exact H.
  - left. unfold step_lease in H. destruct (is_noop_extend k); [apply pres_refl; auto|].
    destruct l as [x p| |]; simpl in H; try (apply pres_refl; auto; fail).
    destruct (lease_one c now k x (msgs s)) as [l' out] eqn:E. apply lease_one_pres in E.
    destruct out as [|[|]]; simpl in H; apply E; auto.
  - left. destruct (batch_kind_ok k); [|apply pres_refl; auto].
    unfold step_lease_batch in H.
    destruct (lease_batch c now (match k with KNack d => KNack (Z.max d 0) | _ => k end) ls (msgs s)) as [[ms' n] cs] eqn:E.
    apply lease_batch_pres in E. simpl in H. apply E. auto.
  - left. unfold step_manage in H. simpl in H. eapply apply_pm_pres; eauto. apply pm_manage_imm.
  - left. destruct k; simpl in H; try (apply pres_refl; auto; fail);
      unfold step_manage_f in H; destruct (f_preview f); simpl in H;
        try (apply pres_refl; auto; fail); (eapply apply_pm_pres; [apply pm_manage_imm | eauto]).
  - left. unfold step_list in H. destruct ord; simpl in H; apply prune_pres in H; auto.
  - left. unfold step_list_dead in H. simpl in H. apply prune_pres in H. auto.
  - left. apply pres_refl. auto.
  - left. unfold step_stats in H. simpl in H. apply prune_pres in H. auto.
  - left. destruct fl; simpl in H; apply pres_refl; auto.
Qed.

(** over whole histories: whatever is stored was put there by an enqueue of the history and
    still carries that enqueue's payload / header / trace handles *)
Definition origin (xs : list (op * oracle)) (m : msg) : Prop :=
  exists x o m0, In (x, o) xs /\ created x o m0 /\ same_content m0 m.

Lemma run_content : forall fl c xs pre s evs sf,
  (forall m, In m (msgs s) -> origin pre m) ->
  run fl c s xs = (evs, sf) ->
  forall m, In m (msgs sf) -> origin (pre ++ xs) m.
Proof.
  induction xs as [|[x o] tl IH]; intros pre s evs sf Hinv H m Hm; simpl in H.
  - inversion H; subst. rewrite app_nil_r. auto.
  - destruct (step fl c s x o) as [s' r] eqn:Es.
    destruct (run fl c s' tl) as [evs' sf'] eqn:Er. inversion H; subst.
    replace (pre ++ (x, o) :: tl) with ((pre ++ [(x, o)]) ++ tl) by (rewrite <- app_assoc; reflexivity).
    eapply IH; [|exact Er|exact Hm].
    intros m1 Hm1.
    assert (Hs : In m1 (msgs (fst (step fl c s x o)))) by (rewrite Es; auto).
    apply step_content in Hs. destruct Hs as [[m0 [Hin Hc]] | Hcr].
    + destruct (Hinv m0 Hin) as [x0 [o0 [mm [Hx [Hcr Hsc]]]]].
      exists x0, o0, mm. split; [apply in_or_app; auto | split; [auto | exact (same_imm_trans _ _ _ Hsc Hc)]].
    + exists x, o, m1. split; [apply in_or_app; right; left; reflexivity | split; [auto | apply same_imm_refl]].
Qed.

Theorem payload_preserved : forall fl c xs evs sf,
  run fl c init xs = (evs, sf) ->
  forall m, In m (msgs sf) ->
  exists x o now es ies i e,
    In (x, o) xs /\ (x = EnqueueBatch now es \/ (exists e1, es = [e1] /\ x = Enqueue now e1)) /\
    assign_ids es (o_genids o) = Some ies /\ In (i, e) ies /\
    m_id m = i /\ m_body m = e_body e /\ m_hdr m = e_hdr e /\ m_trace m = e_trace e /\
    m_route m = e_route e /\ m_target m = e_target e.
Proof.
  intros fl c xs evs sf H m Hm.
  pose proof (run_content fl c xs [] init evs sf (fun m H => match H with end) H m Hm) as Ho.
  simpl in Ho. destruct Ho as [x [o [m0 [Hin [[now [es [ies [i [e [Hx [Ha [Hie Hm0]]]]]]]] Hc]]]]].
  exists x, o, now, es, ies, i, e. subst m0.
  destruct Hc as [C1 [C2 [C3 [C4 [C5 [C6 C7]]]]]]. simpl in *.
  repeat split; auto.
Qed.

(** non-vacuity: enqueue, dequeue, nack, dequeue again, restart - the handles are the enqueued ones *)
Example payload_preserved_example :
  let e := mkEnq (Some 7%N) 1%N 2%N None None 41%N 42%N 43%N in
  let xs := [(Enqueue 10 e, mkOracle [] [] [] []);
             (Dequeue 20 None None 1 0, mkOracle [(7%N, 100%N)] [] [] []);
             (LeaseOp 30 (KNack 0) (LKnown 100%N false), mkOracle [] [] [] []);
             (Dequeue 40 None None 1 0, mkOracle [(7%N, 101%N)] [] [] []);
             (Reopen 50, mkOracle [] [] [] [])] in
  map (fun m => (m_id m, m_st m, m_attempt m, m_body m, m_hdr m, m_trace m)) (msgs (snd (run Sql (mkCfg 0 false 0 0 0 0 0 0) init xs)))
  = [(7%N, Leased, 2, 41%N, 42%N, 43%N)].
Proof. vm_compute. reflexivity. Qed.
