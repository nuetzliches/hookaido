(** Lemmas about the byte-string helpers of Model/RBytes.v, and the few list facts
    that the host, path and route proofs need beside them. *)
From Coq Require Import List NArith Bool Lia Arith.
From HK Require Import Model.RBytes.
Import ListNotations.
Open Scope N_scope.

Lemma app_cons_not_self : forall (A : Type) (x d : list A) c, d <> x ++ c :: d.
Proof.
  intros A x d c H. apply (f_equal (@List.length A)) in H. rewrite app_length in H. simpl in H. lia.
Qed.

Lemma app_cons_inj_tail : forall (A : Type) (x y d : list A) a b,
  x ++ a :: d = y ++ b :: d -> x = y /\ a = b.
Proof.
  intros A x y d a b H. apply app_inj_tail. apply (app_inv_tail d).
  rewrite <- !app_assoc. exact H.
Qed.

Lemma nonempty_has_member : forall (A : Type) (l : list A), l <> [] <-> exists x, In x l.
Proof.
  intros A l. destruct l as [|a l]; split.
  - contradiction.
  - intros [x []].
  - intros _. exists a. left. reflexivity.
  - discriminate.
Qed.

Lemma beq_eq : forall a b, beq a b = true <-> a = b.
Proof.
  induction a as [|x a IH]; destruct b as [|y b]; simpl; try (split; discriminate).
  - split; reflexivity.
  - rewrite andb_true_iff, N.eqb_eq, IH. split.
    + intros [Hx Ha]. subst. reflexivity.
    + intro H. inversion H. split; reflexivity.
Qed.

Lemma beq_refl : forall a, beq a a = true.
Proof. intro a. apply beq_eq. reflexivity. Qed.

Lemma beq_neq : forall a b, beq a b = false <-> a <> b.
Proof. intros a b. rewrite <- not_true_iff_false, beq_eq. reflexivity. Qed.

Lemma is_empty_nil : forall a, is_empty a = true <-> a = [].
Proof. destruct a; simpl; split; intro; congruence. Qed.

Lemma is_empty_false : forall a, is_empty a = false <-> a <> [].
Proof. destruct a; simpl; split; intro H; congruence. Qed.

Lemma prefixb_spec : forall p s, prefixb p s = true <-> exists t, s = p ++ t.
Proof.
  induction p as [|x p IH]; intros s; simpl.
  - split; [intros _; exists s; reflexivity | reflexivity].
  - destruct s as [|y s].
    + split; [discriminate | intros [t H]; discriminate].
    + rewrite andb_true_iff, N.eqb_eq, IH. split.
      * intros [E [t H]]. exists t. subst. reflexivity.
      * intros [t H]. inversion H; subst. split; [reflexivity | exists t; reflexivity].
Qed.

Lemma prefixb_app : forall p t, prefixb p (p ++ t) = true.
Proof. intros. apply prefixb_spec. exists t. reflexivity. Qed.

Lemma suffixb_spec : forall p s, suffixb p s = true <-> exists t, s = t ++ p.
Proof.
  intros p s. unfold suffixb. rewrite prefixb_spec. split.
  - intros [t H]. exists (rev t). apply (f_equal (@rev N)) in H.
    rewrite rev_involutive, rev_app_distr, rev_involutive in H. exact H.
  - intros [t H]. exists (rev t). subst. apply rev_app_distr.
Qed.

Lemma trim_prefix_app : forall p t, trim_prefix p (p ++ t) = t.
Proof.
  intros. unfold trim_prefix. rewrite prefixb_app.
  rewrite skipn_app, skipn_all, Nat.sub_diag. reflexivity.
Qed.

Lemma mem_In : forall x l, mem x l = true <-> In x l.
Proof.
  intros x l. unfold mem. rewrite existsb_exists. split.
  - intros [y [Hy E]]. apply beq_eq in E. subst. exact Hy.
  - intro H. exists x. split; [exact H | apply beq_refl].
Qed.

Lemma contains_byte_In : forall c s, contains_byte c s = true <-> In c s.
Proof.
  intros c s. unfold contains_byte. rewrite existsb_exists. split.
  - intros [y [Hy E]]. apply N.eqb_eq in E. subst. exact Hy.
  - intro H. exists c. split; [exact H | apply N.eqb_refl].
Qed.

Lemma split_on_sep : forall c s, split_on c (c :: s) = [] :: split_on c s.
Proof. intros c s. simpl. rewrite N.eqb_refl. reflexivity. Qed.

Lemma split_on_app : forall c a s h r,
  ~ In c a -> split_on c s = h :: r -> split_on c (a ++ s) = (a ++ h) :: r.
Proof.
  intros c a s h r Ha Hs. induction a as [|x a IH]; simpl; [exact Hs|].
  destruct (N.eqb_spec x c) as [E|_]; [exfalso; apply Ha; left; exact E|].
  rewrite IH; [reflexivity | intro H; apply Ha; right; exact H].
Qed.

Lemma split_on_nonempty : forall c s, split_on c s <> [].
Proof.
  intros c s. induction s as [|x t IH]; simpl; [discriminate|].
  destruct (x =? c); [discriminate|]. destruct (split_on c t); [contradiction | discriminate].
Qed.

Lemma split_on_no_sep : forall c s seg, In seg (split_on c s) -> ~ In c seg.
Proof.
  intros c s. induction s as [|x t IH]; simpl; intros seg H.
  - destruct H as [H|[]]. subst. intros [].
  - destruct (split_on c t) as [|h r] eqn:Et; [destruct (split_on_nonempty c t Et)|].
    destruct (N.eqb_spec x c) as [_|E].
    + destruct H as [<-|H]; [intros [] | exact (IH seg H)].
    + destruct H as [<-|H]; [|exact (IH seg (or_intror H))].
      intros [H|H]; [exact (E H) | exact (IH h (or_introl eq_refl) H)].
Qed.

Lemma join_split : forall c s, join [c] (split_on c s) = s.
Proof.
  intros c s. induction s as [|x t IH]; simpl; [reflexivity|].
  pose proof (split_on_nonempty c t) as Hne.
  destruct (N.eqb_spec x c) as [E|_]; destruct (split_on c t) as [|h r]; try contradiction.
  - subst x. simpl in *. rewrite IH. reflexivity.
  - destruct r; simpl in *; rewrite <- IH; reflexivity.
Qed.

Lemma split_join : forall c l, l <> [] -> (forall s, In s l -> ~ In c s) -> split_on c (join [c] l) = l.
Proof.
  intros c l. induction l as [|a l IH]; intros Hne Hno; [contradiction|].
  assert (Ha : ~ In c a) by (apply Hno; left; reflexivity).
  destruct l as [|b l].
  - pose proof (split_on_app c a [] [] [] Ha eq_refl) as E. rewrite app_nil_r in E. exact E.
  - change (join [c] (a :: b :: l)) with (a ++ c :: join [c] (b :: l)).
    rewrite (split_on_app c a _ [] (b :: l) Ha).
    + rewrite app_nil_r. reflexivity.
    + rewrite split_on_sep, IH; [reflexivity | discriminate | intros s Hs; apply Hno; right; exact Hs].
Qed.
