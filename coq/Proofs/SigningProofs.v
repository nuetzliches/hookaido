(** Lemmas about the signing / rotation-window model (Model/Signing.v). *)
From Coq Require Import String Ascii List Bool ZArith Lia OrderedTypeEx.
From HK Require Import Model.StrUtil Model.Signing.
Import ListNotations.
Local Open Scope string_scope.
Local Open Scope Z_scope.

(** Go's [<] on strings is the byte-wise order [String.ltb]: a strict total order. *)

Lemma ltb_lt a b : String.ltb a b = true <-> String_as_OT.lt a b.
Proof.
  unfold String.ltb. rewrite <- String_as_OT.cmp_lt. unfold String_as_OT.cmp.
  destruct (String.compare a b); split; congruence.
Qed.

Lemma ltb_irrefl a : String.ltb a a = false.
Proof.
  destruct (String.ltb a a) eqn:E; [|reflexivity].
  apply ltb_lt in E. exfalso. exact (String_as_OT.lt_not_eq _ _ E eq_refl).
Qed.

Lemma ltb_trans a b c : String.ltb a b = true -> String.ltb b c = true -> String.ltb a c = true.
Proof. rewrite !ltb_lt. apply String_as_OT.lt_trans. Qed.

Lemma ltb_total a b : a <> b -> String.ltb a b = true \/ String.ltb b a = true.
Proof.
  intros Hne. unfold String.ltb. rewrite (String.compare_antisym b a).
  destruct (String.compare a b) eqn:E; cbn; auto.
  apply String.compare_eq_iff in E. contradiction.
Qed.

Lemma ltb_asym a b : String.ltb a b = true -> String.ltb b a = false.
Proof.
  intros H. destruct (String.ltb b a) eqn:E; [|reflexivity].
  pose proof (ltb_trans _ _ _ H E) as H2. rewrite ltb_irrefl in H2. discriminate.
Qed.

Lemma valid_at_spec v t :
  valid_at v t = true <->
  v_from v <> go_zero /\ v_from v <= t /\ (v_has_until v = true -> t < v_until v).
Proof.
  unfold valid_at.
  destruct (Z.eqb_spec (v_from v) go_zero) as [E|E]; cbn [orb].
  - split; [discriminate | intros [H _]; contradiction].
  - destruct (Z.ltb_spec t (v_from v)) as [L|L].
    + split; [discriminate | intros (_ & H & _); lia].
    + destruct (v_has_until v); cbn [negb].
      * rewrite Z.ltb_lt. split; [intros H; repeat split; auto | intros (_ & _ & H); auto].
      * split; [intros _; repeat split; auto; discriminate | reflexivity].
Qed.

(** valid_from inclusive, valid_until exclusive - at nanosecond resolution *)
Lemma window_edges v :
  v_from v <> go_zero -> (v_has_until v = true -> v_from v < v_until v) ->
  valid_at v (v_from v) = true /\ valid_at v (v_from v - 1) = false /\
  (v_has_until v = true -> valid_at v (v_until v - 1) = true /\ valid_at v (v_until v) = false) /\
  (v_has_until v = false -> forall t, v_from v <= t -> valid_at v t = true).
Proof.
  intros Hz Hu. split; [|split; [|split]].
  - apply valid_at_spec. repeat split; auto. lia.
  - apply not_true_iff_false. rewrite valid_at_spec. intros (_ & H & _). lia.
  - intros Hh. specialize (Hu Hh). split.
    + apply valid_at_spec. repeat split; auto; lia.
    + apply not_true_iff_false. rewrite valid_at_spec. intros (_ & _ & H). specialize (H Hh). lia.
  - intros Hn t Ht. apply valid_at_spec. rewrite Hn. repeat split; auto. discriminate.
Qed.

Lemma window_convex v t1 t2 t :
  valid_at v t1 = true -> valid_at v t2 = true -> t1 <= t <= t2 -> valid_at v t = true.
Proof.
  rewrite !valid_at_spec. intros (A1 & A2 & A3) (B1 & B2 & B3) Ht. repeat split; auto; try lia.
  intros Hu. specialize (B3 Hu). lia.
Qed.

(** [better m v w]: v strictly precedes w under the configured rule - newer (resp. older)
    valid_from first, ties by the smaller id. *)
Definition better (m : mode) (v w : version) : Prop :=
  match m with Newest => v_from w < v_from v | Oldest => v_from v < v_from w end
  \/ (v_from v = v_from w /\ String.ltb (v_id v) (v_id w) = true).

Definition same_key (v w : version) : Prop := v_from v = v_from w /\ v_id v = v_id w.
Definition ge (m : mode) (v w : version) : Prop := better m v w \/ same_key v w.

Lemma replaces_spec m v s : replaces m v s = true <-> better m v s.
Proof.
  unfold replaces, better. rewrite orb_true_iff, andb_true_iff, Z.eqb_eq.
  destruct m; rewrite Z.ltb_lt; tauto.
Qed.

Lemma better_irrefl m v : ~ better m v v.
Proof. unfold better. intros [H|[_ H]]; [destruct m; lia | rewrite ltb_irrefl in H; discriminate]. Qed.

Lemma better_trans m a b c : better m a b -> better m b c -> better m a c.
Proof.
  unfold better. intros [H1|[H1 H1']] [H2|[H2 H2']].
  - left. destruct m; lia.
  - left. destruct m; lia.
  - left. destruct m; lia.
  - right. split; [lia | eapply ltb_trans; eauto].
Qed.

Lemma better_total m a b : better m a b \/ same_key a b \/ better m b a.
Proof.
  unfold better, same_key.
  destruct (Z.lt_trichotomy (v_from a) (v_from b)) as [H|[H|H]].
  - destruct m; [right; right; left; lia | left; left; lia].
  - destruct (String.string_dec (v_id a) (v_id b)) as [E|E].
    + right; left; auto.
    + destruct (ltb_total _ _ E); [left; right; auto | right; right; right; auto].
  - destruct m; [left; left; lia | right; right; left; lia].
Qed.

Lemma ge_refl m v : ge m v v.
Proof. right. split; reflexivity. Qed.

Lemma better_same m a b c : better m a b -> same_key b c -> better m a c.
Proof. unfold better, same_key. intros [H|[H H']] [E1 E2]; [left; destruct m; lia | right; split; [lia | congruence]]. Qed.

Lemma same_better m a b c : same_key a b -> better m b c -> better m a c.
Proof. unfold better, same_key. intros [E1 E2] [H|[H H']]; [left; destruct m; lia | right; split; [lia | congruence]]. Qed.

Lemma ge_trans m a b c : ge m a b -> ge m b c -> ge m a c.
Proof.
  intros [H1|H1] [H2|H2].
  - left. eapply better_trans; eauto.
  - left. eapply better_same; eauto.
  - left. eapply same_better; eauto.
  - right. destruct H1, H2. split; congruence.
Qed.

Lemma better_ge_absurd m a b : better m a b -> ge m b a -> False.
Proof.
  intros H1 [H2|H2].
  - exact (better_irrefl m a (better_trans _ _ _ _ H1 H2)).
  - exact (better_irrefl m a (better_same _ _ _ _ H1 H2)).
Qed.

Lemma not_replaces_ge m v s : replaces m v s = false -> ge m s v.
Proof.
  intros H. destruct (better_total m s v) as [B|[B|B]].
  - left; assumption.
  - right; assumption.
  - apply replaces_spec in B. congruence.
Qed.

(** What one step of the scan carries on: one of the two versions, and one that precedes both. *)
Lemma replace_pick m v s :
  let c := if replaces m v s then v else s in
  (c = s \/ c = v) /\ ge m c s /\ ge m c v.
Proof.
  cbv zeta. destruct (replaces m v s) eqn:E.
  - apply replaces_spec in E. split; [right; reflexivity|]. split; [left; exact E | apply ge_refl].
  - apply not_replaces_ge in E. split; [left; reflexivity|]. split; [apply ge_refl | exact E].
Qed.

(** The scan keeps a least element, in the order [ge], of the candidates seen so far: the
    version carried in [sel] and the valid ones among those scanned. *)
Lemma scan_min m t : forall vs sel,
  let cands := (match sel with Some s => [s] | None => [] end ++ filter (fun v => valid_at v t) vs)%list in
  match scan m t vs sel with
  | None => cands = []
  | Some r => In r cands /\ forall w, In w cands -> ge m r w
  end.
Proof.
  induction vs as [|v tl IH]; intros sel; cbn [scan filter].
  - destruct sel as [s|]; [|reflexivity].
    split; [left; reflexivity | intros w [<-|[]]; apply ge_refl].
  - destruct (valid_at v t); cbn [negb]; [|apply IH].
    destruct sel as [s|]; [|apply (IH (Some v))].
    destruct (replace_pick m v s) as (Hc & Hcs & Hcv).
    specialize (IH (Some (if replaces m v s then v else s))). cbn in IH |- *.
    destruct (scan m t tl _) as [r|]; [|discriminate IH]. destruct IH as [Hin Hge].
    (* [r] is least among the carried version [c] and the rest, and [c] precedes [s] and [v] *)
    pose proof (Hge _ (or_introl eq_refl)) as Hrc. split.
    + destruct Hin as [<-|Hin]; [|right; right; exact Hin].
      destruct Hc as [->| ->]; [left | right; left]; reflexivity.
    + intros w [<-|[<-|Hw]].
      * exact (ge_trans _ _ _ _ Hrc Hcs).
      * exact (ge_trans _ _ _ _ Hrc Hcv).
      * apply Hge. right. exact Hw.
Qed.

Lemma select_none m vs t :
  select m vs t = None <-> forall w, In w vs -> valid_at w t = false.
Proof.
  unfold select. pose proof (scan_min m t vs None) as I. cbn in I.
  destruct (scan m t vs None) as [r|].
  - destruct I as [Hin _]. apply filter_In in Hin. destruct Hin as [Hr Hv].
    split; [discriminate|]. intros H. rewrite (H r Hr) in Hv. discriminate.
  - split; [|reflexivity]. intros _ w Hw. apply not_true_iff_false. intros Hv.
    assert (Hf : In w (filter (fun v => valid_at v t) vs)) by (apply filter_In; auto).
    rewrite I in Hf. exact Hf.
Qed.

Lemma same_key_unique vs v w :
  NoDup (map v_id vs) -> In v vs -> In w vs -> v_id v = v_id w -> v = w.
Proof.
  induction vs as [|a tl IH]; cbn; intros Hnd Hv Hw Hid; [contradiction|].
  inversion Hnd as [|? ? Hnotin Hnd']; subst.
  destruct Hv as [Hv|Hv], Hw as [Hw|Hw]; subst; auto.
  - exfalso. apply Hnotin. rewrite Hid. apply in_map. assumption.
  - exfalso. apply Hnotin. rewrite <- Hid. apply in_map. assumption.
Qed.

(** The selected version is the one valid version that precedes every other valid version
    under the strict total order (valid_from, then id). *)
Lemma select_spec m vs t v :
  NoDup (map v_id vs) ->
  (select m vs t = Some v <->
   In v vs /\ valid_at v t = true /\
   forall w, In w vs -> valid_at w t = true -> w = v \/ better m v w).
Proof.
  intros Hnd. unfold select. pose proof (scan_min m t vs None) as I. cbn in I. split.
  - intros E. rewrite E in I. destruct I as [Hin Hge]. apply filter_In in Hin.
    destruct Hin as [Hin Hv]. repeat split; trivial. intros w Hw Hvw.
    destruct (Hge w) as [B|[_ K]]; [apply filter_In; auto | right; exact B | left].
    symmetry. exact (same_key_unique vs v w Hnd Hin Hw K).
  - intros (Hin & Hv & Hmin).
    assert (Hf : In v (filter (fun v => valid_at v t) vs)) by (apply filter_In; auto).
    destruct (scan m t vs None) as [r|]; [|rewrite I in Hf; destruct Hf].
    destruct I as [Hr Hge]. apply filter_In in Hr. destruct Hr as [Hr Hvr].
    destruct (Hmin r Hr Hvr) as [->|B]; [reflexivity|].
    destruct (better_ge_absurd m v r B (Hge v Hf)).
Qed.

Lemma no_valid_version_no_ref c t :
  c_versions c <> [] -> (forall w, In w (c_versions c) -> valid_at w t = false) -> select_ref c t = None.
Proof.
  intros Hne Hall. unfold select_ref. destruct (c_versions c) as [|v0 tl] eqn:Ev; [congruence|].
  destruct (c_mode c) as [m|]; [|reflexivity].
  assert (select m (v0 :: tl) t = None) as -> by (apply select_none; exact Hall). reflexivity.
Qed.

Section Crypto.
  Variable sha256 : string -> string.
  Variable hmac : string -> string -> string.
  Variable load : string -> option string.

  Lemma sign_exact c now meth path body ts sg :
    sign sha256 hmac load c now meth path body = Some (ts, sg) <->
    trim_space (c_sig_header c) <> "" /\ trim_space (c_ts_header c) <> "" /\
    exists ref secret,
      select_ref c now = Some ref /\ load ref = Some secret /\ secret <> "" /\
      ts = dec (now / 1000000000) /\
      sg = hex (hmac secret
                  (to_upper meth ++ nl ++ (if (path =? "")%string then "/" else path) ++ nl
                   ++ dec (now / 1000000000) ++ nl ++ hex (sha256 body))%string).
  Proof.
    unfold sign. split.
    - destruct (String.eqb_spec (trim_space (c_sig_header c)) "") as [|E1]; [discriminate|].
      destruct (String.eqb_spec (trim_space (c_ts_header c)) "") as [|E2]; [discriminate|].
      destruct (select_ref c now) as [ref|]; [|discriminate].
      destruct (load ref) as [secret|] eqn:El; [|discriminate].
      destruct (String.eqb_spec secret "") as [|E3]; [discriminate|].
      intros [= <- <-]. repeat split; trivial. exists ref, secret. repeat split; trivial.
    - intros (E1 & E2 & ref & secret & -> & -> & E3 & -> & ->).
      apply String.eqb_neq in E1, E2, E3. rewrite E1, E2, E3. reflexivity.
  Qed.

  Lemma signature_is_hmac c now meth path body ts sg :
    sign sha256 hmac load c now meth path body = Some (ts, sg) ->
    exists ref secret,
      select_ref c now = Some ref /\ load ref = Some secret /\ secret <> "" /\
      ts = dec (now / 1000000000) /\
      sg = hex (hmac secret
                  (to_upper meth ++ nl ++ (if (path =? "")%string then "/" else path) ++ nl
                   ++ dec (now / 1000000000) ++ nl ++ hex (sha256 body))%string).
  Proof. intros H. apply sign_exact in H. tauto. Qed.

End Crypto.

Lemma iv_valid_at_spec v t :
  iv_valid_at v t = true <->
  iv_from v <> go_zero /\ iv_from v <= t /\ (iv_until v <> go_zero -> t < iv_until v).
Proof.
  unfold iv_valid_at.
  destruct (Z.eqb_spec (iv_from v) go_zero) as [E|E].
  - split; [discriminate | intros [H _]; contradiction].
  - destruct (Z.ltb_spec t (iv_from v)) as [L|L].
    + split; [discriminate | intros (_ & H & _); lia].
    + destruct (Z.eqb_spec (iv_until v) go_zero) as [U|U].
      * split; [intros _; repeat split; auto; intros; contradiction | reflexivity].
      * rewrite Z.ltb_lt. split; [intros H; repeat split; auto | intros (_ & _ & H); auto].
Qed.

Lemma iv_window_edges v :
  iv_from v <> go_zero -> iv_until v <> go_zero -> iv_from v < iv_until v ->
  iv_valid_at v (iv_from v) = true /\ iv_valid_at v (iv_from v - 1) = false /\
  iv_valid_at v (iv_until v - 1) = true /\ iv_valid_at v (iv_until v) = false.
Proof.
  intros Hz Hu Hlt. rewrite <- !not_true_iff_false, !iv_valid_at_spec.
  repeat split; auto; lia.
Qed.

Lemma insert_sorted_In x l y : In y (insert_sorted x l) <-> In y (x :: l).
Proof.
  induction l as [|a t IH]; cbn [insert_sorted]; [reflexivity|].
  destruct (iv_less a x); [|reflexivity]. cbn [In] in *. rewrite IH. tauto.
Qed.

Lemma sort_versions_In l y : In y (sort_versions l) <-> In y l.
Proof.
  induction l as [|a t IH]; cbn [sort_versions]; [reflexivity|].
  rewrite insert_sorted_In. cbn [In]. rewrite IH. reflexivity.
Qed.

Lemma set_valid_at_In vs t v : In v (set_valid_at vs t) <-> In v vs /\ iv_valid_at v t = true.
Proof. unfold set_valid_at. rewrite sort_versions_In, filter_In. reflexivity. Qed.

Lemma insert_sorted_length x l : length (insert_sorted x l) = S (length l).
Proof. induction l as [|a t IH]; cbn; [reflexivity|]. destruct (iv_less a x); cbn; auto. Qed.

(** SelectSecrets hands Verify exactly: the inline secrets and the values of the versions valid at [t]. *)
Lemma inbound_exact vs inline t k :
  In k (select_secrets vs inline t) <->
  In k inline \/ exists v, In v vs /\ iv_valid_at v t = true /\ iv_value v = k.
Proof.
  unfold select_secrets. rewrite in_app_iff, in_map_iff. split.
  - intros [[v [Hv Hin]]|H]; [right | left; assumption].
    apply set_valid_at_In in Hin. exists v. tauto.
  - intros [H|[v (H1 & H2 & H3)]]; [right; assumption | left].
    exists v. split; [assumption | apply set_valid_at_In; tauto].
Qed.

(** Verify's secret list, with or without versions configured. *)
Lemma secrets_for_In vs inline ts k :
  In k (secrets_for vs inline ts) <->
  In k inline \/ exists v, In v vs /\ iv_valid_at v (ts * 1000000000) = true /\ iv_value v = k.
Proof.
  destruct vs as [|v0 tl]; [|apply inbound_exact]. cbn [secrets_for].
  split; [auto | intros [H | [v [[] _]]]; exact H].
Qed.

Section Inbound.
  Variable hmac : string -> string -> string.

  Lemma accepts_spec secrets msg sg :
    accepts hmac secrets msg sg = true <-> exists k, In k secrets /\ k <> "" /\ hmac k msg = sg.
  Proof.
    unfold accepts. rewrite existsb_exists.
    split; intros [k H]; exists k; rewrite andb_true_iff, negb_true_iff, String.eqb_neq, String.eqb_eq in *; exact H.
  Qed.

  Lemma inbound_inline_only inline ts msg sg :
    accepts hmac (secrets_for [] inline ts) msg sg = true <->
    exists k, k <> "" /\ hmac k msg = sg /\ In k inline.
  Proof.
    cbn [secrets_for]. rewrite accepts_spec. split; intros [k H]; exists k; tauto.
  Qed.
End Inbound.

(** Non-vacuity: a version set with an overlap, a tie on valid_from and an open end. *)

Definition mkv (id : string) (from : Z) (until : option Z) : version :=
  {| v_id := id; v_ref := "raw:" ++ id; v_from := from;
     v_has_until := match until with Some _ => true | None => false end;
     v_until := match until with Some u => u | None => 0 end |}.

Definition ex_versions : list version :=
  [mkv "k2" 2000 (Some 5000); mkv "k1" 1000 (Some 3000); mkv "k3" 2000 None; mkv "k0" 1000 (Some 2000)].

Example ex_nodup : NoDup (map v_id ex_versions).
Proof. repeat constructor; cbn; intuition discriminate. Qed.

Example ex_select :
  map (fun t => option_map v_id (select Newest ex_versions t)) [999; 1000; 1999; 2000; 2999; 3000; 4999; 5000]
    = [None; Some "k0"; Some "k0"; Some "k2"; Some "k2"; Some "k2"; Some "k2"; Some "k3"] /\
  map (fun t => option_map v_id (select Oldest ex_versions t)) [999; 1000; 1999; 2000; 2999; 3000; 4999; 5000]
    = [None; Some "k0"; Some "k0"; Some "k1"; Some "k1"; Some "k2"; Some "k2"; Some "k3"].
Proof. vm_compute. split; reflexivity. Qed.

Example ex_sign :
  let c := {| c_secret_ref := ""; c_versions := ex_versions; c_mode := Some Newest;
              c_sig_header := "X-Hookaido-Signature"; c_ts_header := "X-Hookaido-Timestamp" |} in
  let load := fun r => Some ("S-" ++ r)%string in
  let sha := fun b => ("h(" ++ b ++ ")")%string in
  let mac := fun k m => (k ++ "|" ++ m)%string in
  sign sha mac load c 2500 "post" "" "{}" <> None /\
  sign sha mac load c 500 "post" "" "{}" = None.
Proof. vm_compute. split; [discriminate | reflexivity]. Qed.
