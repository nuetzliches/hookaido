(** C14 - operator queue mutations touch exactly what they name.
    Statements, each derived from Proofs/. *)
From Coq Require Import List ZArith NArith Bool Sorted Permutation.
From HK Require Import Model.Queue Model.QueueMon Proofs.QueueBase Proofs.QueueInv Proofs.QueueInvStep
  Proofs.QueueFence Proofs.QueueManage Proofs.QueueMonSound.
Import ListNotations.
Open Scope Z_scope.

(** by ids (cancel / requeue / resume / DLQ requeue / DLQ delete): exactly the named messages that are in
    a state the operation is defined for change, exactly as the operation defines (deleted for DLQ
    delete); every other message is identical afterwards; nothing appears; the count is the number selected *)
Theorem C14_by_ids_exact : forall now k idl s s' r,
  Inv s -> step_manage now k idl s = (s', r) ->
  let nids := norm_ids idl [] in
  let sel m := memN (m_id m) nids && allowed_from k (m_st m) in
  (forall m, In m (msgs s) -> find_id (m_id m) (msgs s') = if sel m then manage_effect now k m else Some m)
  /\ incl (ids (msgs s')) (ids (msgs s))
  /\ exists n matched, r = RCount n matched false /\ n = Z.of_nat (length (filter sel (msgs s))).
Proof. exact manage_by_ids_exact. Qed.

(** the allowed-state sets are the documented ones *)
Theorem C14_allowed_states : forall k st,
  allowed_from k st = true <->
  match k with
  | MCancel => st = Queued \/ st = Leased \/ st = Dead
  | MRequeue => st = Dead \/ st = Canceled
  | MResume => st = Canceled
  | MRequeueDead | MDeleteDead => st = Dead
  end.
Proof.
  intros k st. destruct k; destruct st; simpl; split; intros H; try reflexivity; try discriminate; auto;
    repeat (destruct H as [H | H]); try discriminate; try reflexivity; auto.
Qed.

(** reported counts equal the number of messages actually changed *)
Theorem C14_count_is_changed : forall now k idl s s' n matched,
  Inv s -> step_manage now k idl s = (s', RCount n matched false) ->
  n = Z.of_nat (length (filter (fun m => negb (opt_msg_eqb (find_id (m_id m) (msgs s')) (Some m))) (msgs s))).
Proof.
  intros now k idl s s' n matched I H.
  destruct (manage_by_ids_exact now k idl s s' _ I H) as [Hf [_ [n' [m' [Er En]]]]].
  inversion Er as [[E1 E2]]. rewrite En. f_equal. f_equal. apply filter_ext_in. intros m Hm.
  rewrite (Hf m Hm). symmetry. apply pm_manage_changes.
Qed.

(** cancelling a leased message voids its lease *)
Theorem C14_cancel_voids_lease : forall now idl s s' r m l,
  Inv s -> step_manage now MCancel idl s = (s', r) -> In m (msgs s) -> m_lease m = Some l ->
  In (m_id m) (norm_ids idl []) -> current now l (msgs s') = None.
Proof.
  intros now idl s s' r m l I H Hm Ll Hin.
  destruct (current now l (msgs s')) as [m'|] eqn:Cu; [exfalso | reflexivity].
  apply current_spec in Cu. destruct Cu as [Hm' [Lm' _]].
  (* m' descends from a message of s: a cancelled one carries no lease, another one is not m *)
  unfold step_manage in H. injection H as <- _. simpl in Hm'. apply apply_pm_In in Hm'. destruct Hm' as [m0 [H0 Ep]].
  unfold pm_manage in Ep. destruct (memN (m_id m0) (norm_ids idl []) && allowed_from MCancel (m_st m0)) eqn:E.
  - apply manage_effect_clears in Ep. congruence.
  - injection Ep as <-. assert (m0 = m) by (apply (inv_linj _ _ I m0 m l); assumption). subst m0.
    apply memN_In in Hin. rewrite Hin, (is_leased_st m (lease_is_leased m l (inv_coh _ _ I m Hm) Ll)) in E. discriminate E.
Qed.

(** by filter: the selection is a newest-first (received_at, then id, descending) prefix of at most
    limit (default 100, max 1000) of exactly the messages matching every given criterion from an
    allowed state; a state criterion outside the allowed set selects nothing *)
Theorem C14_filter_selection : forall k f l,
  let cand := filter (fun m => filt_match f m && allowed_from k (m_st m)) l in
  let sorted := sort_by m_recv false cand in
  (match f_state f with Some x => allowed_from k x | None => true end = true ->
     filter_select k f l = map m_id (firstn (Z.to_nat (eff_limit (f_limit f))) sorted))
  /\ (match f_state f with Some x => allowed_from k x | None => true end = false -> filter_select k f l = [])
  /\ Sorted desc_le sorted /\ Permutation cand sorted
  /\ (Z.of_nat (length (filter_select k f l)) <= eff_limit (f_limit f))
  /\ (forall i, In i (filter_select k f l) -> exists m, In m l /\ m_id m = i /\ filt_match f m = true /\ allowed_from k (m_st m) = true).
Proof. exact filter_select_spec. Qed.

Theorem C14_limit_normalisation : forall lim, 1 <= eff_limit lim <= 1000 /\ (lim <= 0 -> eff_limit lim = 100) /\ (1 <= lim <= 1000 -> eff_limit lim = lim).
Proof.
  intros lim. split; [exact (eff_limit_range lim)|]. unfold eff_limit, Gen.Consts.mem_list_limit_default, Gen.Consts.mem_list_limit_cap. split.
  - intros H. apply Z.leb_le in H. rewrite H. reflexivity.
  - intros [H1 H2]. assert (E1 : (lim <=? 0) = false) by (apply Z.leb_gt; Lia.lia). rewrite E1.
    assert (E2 : (1000 <? lim) = false) by (apply Z.ltb_ge; Lia.lia). rewrite E2. reflexivity.
Qed.

(** by filter: preview changes nothing and reports the count; a real run changes exactly the selection *)
Theorem C14_by_filter_exact : forall now k f s s' r,
  Inv s -> step_manage_f now k f s = (s', r) ->
  let idl := filter_select k f (msgs s) in
  let matched := Z.of_nat (length idl) in
  if f_preview f then s' = s /\ r = RCount 0 matched true
  else
    (forall m, In m (msgs s) ->
       find_id (m_id m) (msgs s') = if memN (m_id m) idl && allowed_from k (m_st m) then manage_effect now k m else Some m)
    /\ incl (ids (msgs s')) (ids (msgs s))
    /\ r = RCount (Z.of_nat (length (selected k idl (msgs s)))) matched false.
Proof.
  intros now k f s s' r I H.
  cbv zeta. unfold step_manage_f in H. destruct (f_preview f).
  - inversion H; subst. split; reflexivity.
  - inversion H; subst s' r; clear H. simpl. split; [|split].
    + intros m Hm. apply find_id_apply_pm_In; [apply pm_manage_id_pres | apply I | exact Hm].
    + apply apply_pm_ids_incl. apply pm_manage_id_pres.
    + reflexivity.
Qed.

(** preview_only reports the count a real run on the same queue would match, and a real run changes
    exactly as many messages as it matched *)
Theorem C14_preview_equals_real : forall now k f s,
  let fp := mkFilt (f_route f) (f_target f) (f_state f) (f_limit f) (f_before f) true in
  let fr := mkFilt (f_route f) (f_target f) (f_state f) (f_limit f) (f_before f) false in
  exists a b n, snd (step_manage_f now k fp s) = RCount a n true /\ snd (step_manage_f now k fr s) = RCount b n false
                /\ fst (step_manage_f now k fp s) = s.
Proof.
  intros now k f s.
  cbv zeta. unfold step_manage_f. simpl. eexists. eexists. eexists. split; [reflexivity|]. split; reflexivity.
Qed.

Theorem C14_filter_changed_equals_matched : forall now k f s,
  Inv s -> f_preview f = false -> exists n, snd (step_manage_f now k f s) = RCount n n false.
Proof. exact filter_count_is_matched. Qed.

(** The executable monitor P_C14 that the check evaluates on implementation traces is implied by these
    theorems: it holds on every trace of the model (so it never raises an alarm where the property holds),
    over the operations the Store interface has (there is no by-filter DLQ operation). *)
Theorem C14_monitor_holds_on_model : forall fl c xs,
  Forall (fun xo : op * oracle => store_op (fst xo)) xs -> P_C14 fl c (model_trace fl c xs) = true.
Proof. exact P_C14_holds_on_model. Qed.

Example C14_witness :
  let e i t := mkEnq (Some i) 1%N 1%N (Some t) None 5%N 0%N 0%N in
  let o0 := mkOracle [] [] [] [] in
  map (fun ev => (ev_res ev, map (fun m => (m_id m, m_st m)) (ev_after ev)))
      (model_trace Mem (mkCfg 0 false 0 0 0 0 0 0)
         [(Enqueue 100 (e 1%N 50), o0); (Enqueue 100 (e 2%N 50), o0); (Enqueue 100 (e 3%N 60), o0);
          (ManageF 200 MCancel (mkFilt None None (Some Queued) 2 None false), o0)])
  = [(RUnit, [(1%N, Queued)]); (RUnit, [(1%N, Queued); (2%N, Queued)]); (RUnit, [(1%N, Queued); (2%N, Queued); (3%N, Queued)]);
     (RCount 2 2 false, [(1%N, Queued); (2%N, Canceled); (3%N, Canceled)])].   (* newest first: 3, then the tie 2 before 1 *)
Proof. vm_compute. reflexivity. Qed.

Print Assumptions C14_by_ids_exact.
Print Assumptions C14_count_is_changed.
Print Assumptions C14_cancel_voids_lease.
Print Assumptions C14_filter_selection.
Print Assumptions C14_by_filter_exact.
Print Assumptions C14_preview_equals_real.
Print Assumptions C14_filter_changed_equals_matched.
Print Assumptions C14_monitor_holds_on_model.
