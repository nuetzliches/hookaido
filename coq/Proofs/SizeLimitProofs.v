From Coq Require Import ZArith List Bool Lia.
From HK Require Import Model.SizeLimit.
Import ListNotations.
Open Scope Z_scope.

Lemma size_verdict_pos : forall rate_ok body max_body hs max_headers, 0 < max_headers ->
  size_verdict rate_ok body max_body hs max_headers =
  if negb rate_ok then V429
  else if max_body <? body then V413
  else if max_headers <? header_kv_size hs then V413 else VAdmit.
Proof.
  intros r body mb hs mh Hm. unfold size_verdict, body_fits, headers_fit.
  rewrite (proj2 (Z.leb_gt mh 0) Hm), Z.leb_antisym, !negb_involutive. reflexivity.
Qed.

Lemma within_limits_admitted : forall body max_body hs max_headers,
  body <= max_body -> 0 < max_headers -> header_kv_size hs <= max_headers ->
  size_verdict true body max_body hs max_headers = VAdmit.
Proof.
  intros body mb hs mh Hb Hm H. rewrite size_verdict_pos by exact Hm.
  rewrite (proj2 (Z.ltb_ge mb body) Hb), (proj2 (Z.ltb_ge mh (header_kv_size hs)) H). reflexivity.
Qed.

Lemma rate_limited_429 : forall body max_body hs max_headers,
  size_verdict false body max_body hs max_headers = V429.
Proof. reflexivity. Qed.

Lemma eff_limit_spec : forall d r, (0 < r -> eff_limit d r = r) /\ (r <= 0 -> eff_limit d r = d).
Proof.
  intros d r. unfold eff_limit. destruct (Z.ltb_spec 0 r); split; intros H'; (reflexivity || lia).
Qed.

Example size_example :
  size_verdict true 16 16 [(5, 3); (12, 2)] 22 = VAdmit /\ size_verdict true 17 16 [] 22 = V413 /\
  size_verdict true 16 16 [(5, 3); (12, 3)] 22 = V413.
Proof. repeat split. Qed.
