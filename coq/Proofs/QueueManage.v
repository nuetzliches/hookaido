(** C14 - operator mutations touch exactly what they name. *)
From Coq Require Import List ZArith NArith Bool Lia Sorted Permutation.
From HK Require Import Gen.Consts Model.Queue Model.QueueMon Proofs.ListFacts Proofs.QueueBase Proofs.QueueInv
  Proofs.QueueStep Proofs.QueueAdmit.
Import ListNotations.
Open Scope Z_scope.

Lemma pm_manage_id_pres now k idl : id_pres (pm_manage now k idl).
Proof. apply imm_pres_id_pres. apply pm_manage_imm. Qed.

Theorem manage_by_ids_exact now k idl s s' r :
  Inv s -> step_manage now k idl s = (s', r) ->
  let nids := norm_ids idl [] in
  let sel m := memN (m_id m) nids && allowed_from k (m_st m) in
  (forall m, In m (msgs s) -> find_id (m_id m) (msgs s') = if sel m then manage_effect now k m else Some m)
  /\ incl (ids (msgs s')) (ids (msgs s))
  /\ exists n matched, r = RCount n matched false /\ n = Z.of_nat (length (filter sel (msgs s))).
Proof.
  intros I H. unfold step_manage in H. inversion H; subst s' r; clear H. cbv zeta. simpl.
  split; [|split].
  - intros m Hm. apply find_id_apply_pm_In; [apply pm_manage_id_pres | apply I | exact Hm].
  - apply apply_pm_ids_incl. apply pm_manage_id_pres.
  - eexists. eexists. split; reflexivity.
Qed.

Lemma manage_effect_moves now k m m' :
  allowed_from k (m_st m) = true -> manage_effect now k m = Some m' -> st_eqb (m_st m') (m_st m) = false.
Proof.
  intros Ha H. unfold manage_effect in H.
  destruct k; inversion H; subst; simpl; destruct (m_st m); try discriminate Ha; reflexivity.
Qed.

Lemma manage_effect_changes now k m : allowed_from k (m_st m) = true -> manage_effect now k m <> Some m.
Proof.
  intros Ha H. pose proof (manage_effect_moves now k m m Ha H) as X. destruct (m_st m); discriminate X.
Qed.

Lemma pm_manage_changes now k idl m :
  negb (opt_msg_eqb (pm_manage now k idl m) (Some m)) = memN (m_id m) idl && allowed_from k (m_st m).
Proof.
  unfold pm_manage. destruct (memN (m_id m) idl && allowed_from k (m_st m)) eqn:E.
  - apply andb_true_iff in E. destruct E as [_ Ea].
    destruct (manage_effect now k m) as [x|] eqn:Ef; [|reflexivity].
    simpl. unfold msg_eqb. rewrite (manage_effect_moves now k m x Ea Ef), andb_false_r. reflexivity.
  - simpl. rewrite msg_eqb_refl. reflexivity.
Qed.

(** the order: received_at, then id - descending = newest first *)
Definition newer (a b : msg) : Prop := lt_key (m_recv b) (m_id b) (m_recv a) (m_id a) = true.

Lemma lt_key_total ka ia kb ib : lt_key ka ia kb ib = true \/ lt_key kb ib ka ia = true \/ (ka = kb /\ ia = ib).
Proof.
  unfold lt_key. destruct (Z.lt_total ka kb) as [H | [H | H]].
  - left. apply orb_true_iff. left. apply Z.ltb_lt. exact H.
  - subst. destruct (N.lt_total ia ib) as [H | [H | H]].
    + left. apply orb_true_iff. right. rewrite Z.eqb_refl. simpl. apply N.ltb_lt. exact H.
    + right. right. auto.
    + right. left. apply orb_true_iff. right. rewrite Z.eqb_refl. simpl. apply N.ltb_lt. exact H.
  - right. left. apply orb_true_iff. left. apply Z.ltb_lt. exact H.
Qed.

Lemma lt_key_trans ka ia kb ib kc ic : lt_key ka ia kb ib = true -> lt_key kb ib kc ic = true -> lt_key ka ia kc ic = true.
Proof.
  unfold lt_key. rewrite !orb_true_iff, !andb_true_iff, !Z.ltb_lt, !Z.eqb_eq, !N.ltb_lt. intros [H1 | [H1 H1']] [H2 | [H2 H2']].
  - left. lia.
  - left. lia.
  - left. lia.
  - right. split; [lia|]. eapply N.lt_trans; eassumption.
Qed.

Definition desc_le (a b : msg) : Prop := newer a b \/ (m_recv a = m_recv b /\ m_id a = m_id b).

Lemma insert_desc_sorted m l :
  Sorted desc_le l -> Sorted desc_le (insert_by m_recv false m l).
Proof.
  induction l as [|x tl IH]; simpl; intros S; [constructor; constructor|].
  destruct (lt_key (m_recv x) (m_id x) (m_recv m) (m_id m)) eqn:E.
  - constructor; [exact S|]. constructor. left. exact E.
  - inversion S as [|? ? Stl Hd]; subst. constructor; [apply IH; exact Stl|].
    assert (Hxm : desc_le x m).
    { destruct (lt_key_total (m_recv x) (m_id x) (m_recv m) (m_id m)) as [H | [H | [H1 H2]]].
      - congruence.
      - left. exact H.
      - right. split; assumption. }
    destruct tl as [|y tl']; simpl.
    + constructor. exact Hxm.
    + destruct (lt_key (m_recv y) (m_id y) (m_recv m) (m_id m)); constructor; [exact Hxm|].
      inversion Hd; subst. assumption.
Qed.

Theorem sort_desc_sorted l : Sorted desc_le (sort_by m_recv false l).
Proof. unfold sort_by. induction l as [|x tl IH]; simpl; [constructor | apply insert_desc_sorted; exact IH]. Qed.

Lemma insert_by_perm key asc m l : Permutation (m :: l) (insert_by key asc m l).
Proof.
  induction l as [|x tl IH]; simpl; [apply Permutation_refl|].
  destruct (if asc then _ else _); [apply Permutation_refl|].
  eapply Permutation_trans; [apply perm_swap|]. apply perm_skip. exact IH.
Qed.

Theorem sort_by_perm key asc l : Permutation l (sort_by key asc l).
Proof.
  unfold sort_by. induction l as [|x tl IH]; simpl; [constructor|].
  eapply Permutation_trans; [apply perm_skip; exact IH | apply insert_by_perm].
Qed.

Lemma eff_limit_range lim : 1 <= eff_limit lim <= mem_list_limit_cap.
Proof.
  unfold eff_limit, mem_list_limit_default, mem_list_limit_cap. destruct (lim <=? 0) eqn:E1.
  - simpl. lia.
  - apply Z.leb_gt in E1. destruct (1000 <? lim) eqn:E2; [lia|]. apply Z.ltb_ge in E2. lia.
Qed.

Lemma eff_limit_fixed lim : 1 <= lim <= 1000 -> eff_limit lim = lim.
Proof.
  intros R. unfold eff_limit, mem_list_limit_default, mem_list_limit_cap.
  destruct (Z.leb_spec lim 0); [lia|]. destruct (Z.ltb_spec 1000 lim); [lia | reflexivity].
Qed.

Theorem filter_select_spec k f l :
  let cand := filter (fun m => filt_match f m && allowed_from k (m_st m)) l in
  let sorted := sort_by m_recv false cand in
  (match f_state f with Some x => allowed_from k x | None => true end = true ->
     filter_select k f l = map m_id (firstn (Z.to_nat (eff_limit (f_limit f))) sorted))
  /\ (match f_state f with Some x => allowed_from k x | None => true end = false -> filter_select k f l = [])
  /\ Sorted desc_le sorted /\ Permutation cand sorted
  /\ (Z.of_nat (length (filter_select k f l)) <= eff_limit (f_limit f))
  /\ (forall i, In i (filter_select k f l) -> exists m, In m l /\ m_id m = i /\ filt_match f m = true /\ allowed_from k (m_st m) = true).
Proof.
  cbv zeta. set (cand := filter (fun m => filt_match f m && allowed_from k (m_st m)) l).
  assert (Hsel : forall i, In i (map m_id (firstn (Z.to_nat (eff_limit (f_limit f))) (sort_by m_recv false cand))) ->
                           exists m, In m l /\ m_id m = i /\ filt_match f m = true /\ allowed_from k (m_st m) = true).
  { intros i Hi. apply in_map_iff in Hi. destruct Hi as [m [Ei Hm]]. apply In_firstn in Hm. apply In_sort_by in Hm.
    unfold cand in Hm. apply filter_In in Hm. destruct Hm as [Hm Hc]. apply andb_true_iff in Hc. exists m. tauto. }
  assert (Hlen : Z.of_nat (length (map m_id (firstn (Z.to_nat (eff_limit (f_limit f))) (sort_by m_recv false cand)))) <= eff_limit (f_limit f)).
  { rewrite map_length. pose proof (firstn_le_length (Z.to_nat (eff_limit (f_limit f))) (sort_by m_recv false cand)).
    pose proof (eff_limit_range (f_limit f)). lia. }
  unfold filter_select. fold cand.
  split; [|split; [|split; [apply sort_desc_sorted | split; [apply sort_by_perm|]]]].
  - destruct (f_state f) as [x|]; [intros H; rewrite H; reflexivity | reflexivity].
  - destruct (f_state f) as [x|]; [intros H; rewrite H; reflexivity | discriminate].
  - split.
    + destruct (f_state f) as [x|]; [destruct (allowed_from k x)|]; try exact Hlen. simpl. pose proof (eff_limit_range (f_limit f)). lia.
    + destruct (f_state f) as [x|]; [destruct (allowed_from k x)|]; try exact Hsel. intros i [].
Qed.

Lemma firstn_ids_NoDup n l : NoDup (ids l) -> NoDup (ids (firstn n l)).
Proof.
  intros ND. unfold ids in *. rewrite <- (firstn_skipn n l), map_app in ND. apply (NoDup_app_inv _ _ ND).
Qed.

Lemma filter_select_NoDup k f l : NoDup (ids l) -> NoDup (filter_select k f l).
Proof.
  intros ND.
  assert (G : NoDup (map m_id (firstn (Z.to_nat (eff_limit (f_limit f)))
                (sort_by m_recv false (filter (fun m => filt_match f m && allowed_from k (m_st m)) l))))).
  { apply firstn_ids_NoDup. unfold ids. eapply Permutation_NoDup; [apply Permutation_map, sort_by_perm|].
    apply filter_ids_NoDup. exact ND. }
  unfold filter_select. destruct (f_state f) as [x|]; [destruct (allowed_from k x)|]; try exact G. constructor.
Qed.

(** every id the real run selects is stored once and in an allowed state, so the reported count equals the
    number matched *)
Theorem filter_count_is_matched now k f s :
  Inv s -> f_preview f = false ->
  exists n, snd (step_manage_f now k f s) = RCount n n false.
Proof.
  intros I Hp. unfold step_manage_f. rewrite Hp. simpl. eexists. f_equal. unfold selected.
  rewrite (selected_length (fun m => allowed_from k (m_st m))); [reflexivity | apply I | apply filter_select_NoDup, I|].
  intros i Hi. destruct (filter_select_spec k f (msgs s)) as [_ [_ [_ [_ [_ Hall]]]]].
  destruct (Hall i Hi) as [m [A [B [_ D]]]]. exists m. auto.
Qed.
