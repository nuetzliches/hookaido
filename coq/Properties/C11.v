(** C11 - Pull, Worker and Admin APIs act only for authorized callers.
    The statements, each derived from the lemmas of Proofs/BearerProofs.v and BearerSessionProofs.v.
    Models: Model/Bearer.v (HTTP and gRPC bearer rules, effective allowlist, handler
    skeletons), Model/PullAuthCompile.v (the compile rule).  Non-vacuity: Proofs/C11Examples.v. *)
From Coq Require Import List NArith Bool.
From Coq Require Strings.String.
Import Coq.Strings.String.StringSyntax.
Delimit Scope string_scope with string.
From HK Require Import Model.RBytes Model.PathClean Model.Bearer Model.PullAuthCompile
     Proofs.RBytesProofs Proofs.BearerProofs Proofs.BearerSessionProofs Proofs.C11Examples.
Import ListNotations.
Open Scope N_scope.

(** What an HTTP request presents: first Authorization value = "Bearer " ++ rest exactly,
    token = TrimSpace(rest), non-empty. *)
Theorem C11_http_presented_shape : forall vals t,
  http_presented vals = Some t <->
  exists rest, header_get vals = bearer_sp ++ rest /\ t = trim rest /\ t <> [].
Proof. exact http_presented_shape. Qed.

(** Pull (HTTP): an authorized request against a non-empty effective allowlist presents a
    token that is a byte-equal member of that allowlist. *)
Theorem C11_authorized_has_token : forall c url_path vals,
  authorize_pull c url_path vals = true ->
  allow_norm (effective c (pull_endpoint url_path)) <> [] ->
  exists t, http_presented vals = Some t /\ In t (effective c (pull_endpoint url_path)).
Proof. exact authorized_has_token. Qed.

(** Worker (gRPC): the same, over the metadata values. *)
Theorem C11_authorized_has_token_worker : forall c ep md,
  authorize_worker c ep md = true ->
  allow_norm (effective c (trim ep)) <> [] ->
  exists vals v t, md = Some vals /\ In v vals /\ grpc_parse v = Some t /\ In t (effective c (trim ep)).
Proof. intros c ep md H Hne. exact (grpc_bearer_sound _ _ H Hne). Qed.

Theorem C11_grpc_parse_shape : forall v t,
  grpc_parse v = Some t <->
  (7 <= List.length (trim v))%nat /\ lower (firstn 7 (trim v)) = bearer_sp_lower /\
  t = trim (skipn 7 (trim v)) /\ t <> [].
Proof. exact grpc_parse_shape. Qed.

(** Near misses: a presented token that is not itself in the list - prefix, suffix, case
    variant, another route's token - is refused; so is a request presenting nothing. *)
Theorem C11_near_miss_rejected : forall tokens vals t',
  allow_norm tokens <> [] -> http_presented vals = Some t' -> ~ In t' tokens ->
  http_bearer_ok tokens vals = false.
Proof. exact near_miss_rejected. Qed.

Theorem C11_no_token_rejected : forall tokens vals,
  allow_norm tokens <> [] -> http_presented vals = None -> http_bearer_ok tokens vals = false.
Proof.
  intros tokens vals Hne Hp. apply not_true_is_false. intro E.
  destruct (http_bearer_sound tokens vals E Hne) as [t [Hp' _]]. congruence.
Qed.

Theorem C11_malformed_present_nothing : forall x v rest,
  http_presented [] = None /\
  http_presented ((bearer_sp_lower ++ x) :: rest) = None /\
  http_presented (bearer_sp :: rest) = None /\
  (prefixb bearer_sp v = false -> http_presented (v :: rest) = None).
Proof.
  intros x v rest. split; [reflexivity|]. split; [reflexivity|]. split; [reflexivity|].
  intro H. unfold http_presented. cbn [header_get]. destruct (is_empty v); [reflexivity|].
  rewrite H. reflexivity.
Qed.

Theorem C11_valid_token_accepted : forall tokens vals t,
  http_presented vals = Some t -> In t tokens -> http_bearer_ok tokens vals = true.
Proof. intros tokens vals t Hp Hi. apply http_bearer_ok_spec. right. exists t. auto. Qed.

(** The route's own tokens replace the global ones. *)
Theorem C11_effective_override : forall c ep r,
  lookup_endpoint ep (a_routes c) = Some r -> pr_tokens r <> [] -> effective c ep = pr_tokens r.
Proof. exact effective_override. Qed.

Theorem C11_override_replaces_global : forall c url_path vals r g,
  lookup_endpoint (pull_endpoint url_path) (a_routes c) = Some r ->
  allow_norm (pr_tokens r) <> [] -> ~ In g (pr_tokens r) ->
  http_presented vals = Some g ->
  authorize_pull c url_path vals = false.
Proof. exact override_replaces_global. Qed.

Theorem C11_override_replaces_global_worker : forall c ep vals r,
  lookup_endpoint (trim ep) (a_routes c) = Some r ->
  allow_norm (pr_tokens r) <> [] ->
  (forall t, In t (grpc_tokens vals) -> ~ In t (pr_tokens r)) ->
  authorize_worker c ep (Some vals) = false.
Proof.
  intros c ep vals r Hl Hne Hn. unfold authorize_worker.
  rewrite (effective_override c _ r Hl (allow_norm_nonempty _ Hne)).
  apply not_true_is_false. intro E.
  destruct (grpc_bearer_sound _ _ E Hne) as [vals' [v [t [Hm [Hv [Hp Hi]]]]]].
  inversion Hm; subst vals'. apply (Hn t); [|exact Hi].
  apply grpc_tokens_In. exists v. auto.
Qed.

(** Unauthorized: 401 / Unauthenticated (405 / InvalidArgument when refused even earlier),
    the store is untouched and no store call is issued. *)
Theorem C11_pull_unauthorized_no_effect : forall (store : Type) run_op c method url_path vals (st : store),
  authorize_pull c url_path vals = false ->
  let o := pull_serve store run_op c method url_path vals st in
  o_store _ o = st /\ o_calls _ o = [] /\
  (o_status _ o = 401 \/ (o_status _ o = 405 /\ method <> s2b "POST"%string)).
Proof. exact pull_unauthorized_no_effect. Qed.

Theorem C11_pull_effect_needs_auth : forall (store : Type) run_op c method url_path vals (st : store),
  let o := pull_serve store run_op c method url_path vals st in
  (o_calls _ o <> [] \/ o_store _ o <> st) -> authorize_pull c url_path vals = true.
Proof.
  intros store run_op c method url_path vals st o H.
  destruct (authorize_pull c url_path vals) eqn:E; [reflexivity|].
  destruct (pull_unauthorized_no_effect store run_op c method url_path vals st E) as [H1 [H2 _]].
  fold o in H1, H2. destruct H as [H|H]; contradiction.
Qed.

Theorem C11_pull_call_route : forall (store : Type) run_op c method url_path vals (st : store) op route,
  In (op, route) (o_calls _ (pull_serve store run_op c method url_path vals st)) ->
  exists r, lookup_endpoint (pull_endpoint url_path) (a_routes c) = Some r /\ pr_route r = route
            /\ op_of (pull_op url_path) = Some op.
Proof.
  intros store run_op c method url_path vals st op route. unfold pull_serve.
  destruct (negb (beq method (s2b "POST"%string))); [intros []|].
  destruct (negb (authorize_pull c url_path vals)); [intros []|].
  destruct (lookup_endpoint (pull_endpoint url_path) (a_routes c)) as [r|]; [|intros []].
  destruct (op_of (pull_op url_path)) as [k|]; [|intros []].
  destruct (run_op k (pr_route r) st) as [code st']. simpl.
  intros [H|[]]. inversion H; subst. exists r. repeat split.
Qed.

Theorem C11_worker_unauthorized_no_effect : forall (store : Type) run_op c op ep pre md (st : store),
  authorize_worker c (trim ep) md = false ->
  let o := worker_call store run_op c op ep pre md st in
  o_store _ o = st /\ o_calls _ o = [] /\
  (o_status _ o = g_unauthenticated \/ o_status _ o = g_invalid_argument).
Proof. exact worker_unauthorized_no_effect. Qed.

Theorem C11_worker_effect_needs_auth : forall (store : Type) run_op c op ep pre md (st : store),
  let o := worker_call store run_op c op ep pre md st in
  (o_calls _ o <> [] \/ o_store _ o <> st) -> authorize_worker c (trim ep) md = true.
Proof.
  intros store run_op c op ep pre md st o H.
  destruct (authorize_worker c (trim ep) md) eqn:E; [reflexivity|].
  destruct (worker_unauthorized_no_effect store run_op c op ep pre md st E) as [H1 [H2 _]].
  fold o in H1, H2. destruct H as [H|H]; contradiction.
Qed.

(** Admin: with tokens configured every path and method goes through the check first. *)
Theorem C11_admin_unauthorized_no_effect : forall (store : Type) admin_router c method url_path vals (st : store),
  authorize_admin c vals = false ->
  let o := admin_serve store admin_router c method url_path vals st in
  ad_status _ o = 401 /\ ad_store _ o = st /\ ad_routed _ o = false.
Proof. exact admin_unauthorized_no_effect. Qed.

Theorem C11_admin_routed_has_token : forall (store : Type) admin_router c method url_path vals (st : store),
  allow_norm (a_admin c) <> [] ->
  ad_routed _ (admin_serve store admin_router c method url_path vals st) = true ->
  exists t, http_presented vals = Some t /\ In t (a_admin c).
Proof.
  intros store admin_router c method url_path vals st Hne H. unfold admin_serve in H.
  destruct (authorize_admin c vals) eqn:E; [|discriminate].
  exact (http_bearer_sound _ _ E Hne).
Qed.

(** A configuration that compiles leaves every pull endpoint with a non-empty allowlist
    (loader fact: secrets.LoadRef never yields an empty value - checked by the harness). *)
Theorem C11_compiled_never_open : forall (load : bytes -> bytes) admin c,
  compile_ok c = true -> (forall ref, load ref <> []) ->
  forall r, In r (c_pull_routes c) ->
  allow_norm (effective (loaded load admin c) (pr_endpoint r)) <> [].
Proof. exact compiled_never_open. Qed.

(** Why the rule is needed: an empty effective allowlist is open. *)
Theorem C11_open_without_rule : forall c ep r,
  lookup_endpoint ep (a_routes c) = Some r -> pr_tokens r = [] -> a_global c = [] ->
  forall vals, http_bearer_ok (effective c ep) vals = true.
Proof. intros c ep r Hl Ht Hg vals. unfold effective. rewrite Hl, Ht, Hg. reflexivity. Qed.

(** Non-vacuity (Proofs/C11Examples.v). *)
Theorem C11_example_override :
  st_of (pull "/pull/r1/dequeue" "Bearer r1-tok") = (200, 11, 1%nat) /\
  st_of (pull "/pull/r1/dequeue" "Bearer global-tok") = (401, 10, 0%nat) /\
  st_of (pull "/pull/r1/dequeue" "Bearer r1-to") = (401, 10, 0%nat).
Proof. exact (conj ex_route_token_ok (conj ex_global_on_override_route ex_prefix)). Qed.

(** Whole sessions.  For every sequence of Pull, Worker and Admin requests over one store - authorized
    and not, in any order - the final store, the sequence of store calls and the requests that reached
    the Admin router are exactly those of the authorized requests alone: unauthorized traffic is
    invisible to the queue wherever it is interleaved, and a session without an authorized request
    leaves everything as it was. *)
Theorem C11_session_ignores_unauthorized : forall (store : Type) run_op admin_router c reqs t,
  session store run_op admin_router c reqs t =
  session store run_op admin_router c (filter (authorized c) reqs) t.
Proof. exact session_ignores_unauthorized. Qed.

Theorem C11_session_all_unauthorized : forall (store : Type) run_op admin_router c reqs t,
  Forall (fun r => authorized c r = false) reqs -> session store run_op admin_router c reqs t = t.
Proof.
  intros store run_op admin_router c reqs t H. revert t.
  induction H as [|r tl Hr _ IH]; intro t; [reflexivity|].
  unfold session in *. cbn [fold_left]. rewrite step_unauthorized by exact Hr. apply IH.
Qed.

Theorem C11_session_insert_unauthorized : forall (store : Type) run_op admin_router c pre r post t,
  authorized c r = false ->
  session store run_op admin_router c (pre ++ r :: post) t = session store run_op admin_router c (pre ++ post) t.
Proof.
  intros store run_op admin_router c pre r post t H. unfold session.
  rewrite !fold_left_app. cbn [fold_left]. rewrite step_unauthorized by exact H. reflexivity.
Qed.

Print Assumptions C11_http_presented_shape.
Print Assumptions C11_authorized_has_token.
Print Assumptions C11_authorized_has_token_worker.
Print Assumptions C11_grpc_parse_shape.
Print Assumptions C11_near_miss_rejected.
Print Assumptions C11_no_token_rejected.
Print Assumptions C11_malformed_present_nothing.
Print Assumptions C11_valid_token_accepted.
Print Assumptions C11_effective_override.
Print Assumptions C11_override_replaces_global.
Print Assumptions C11_override_replaces_global_worker.
Print Assumptions C11_pull_unauthorized_no_effect.
Print Assumptions C11_pull_effect_needs_auth.
Print Assumptions C11_pull_call_route.
Print Assumptions C11_worker_unauthorized_no_effect.
Print Assumptions C11_worker_effect_needs_auth.
Print Assumptions C11_admin_unauthorized_no_effect.
Print Assumptions C11_admin_routed_has_token.
Print Assumptions C11_compiled_never_open.
Print Assumptions C11_open_without_rule.
Print Assumptions C11_example_override.
Print Assumptions C11_session_ignores_unauthorized.
Print Assumptions C11_session_all_unauthorized.
Print Assumptions C11_session_insert_unauthorized.
