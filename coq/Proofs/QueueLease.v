(** Dequeue soundness, lease exclusivity and freshness (C03), and how a lease can end. *)
From Coq Require Import List ZArith NArith Bool Lia.
From HK Require Import Gen.Consts Model.Queue Model.QueueMon Proofs.ListFacts Proofs.QueueBase Proofs.QueueInv
  Proofs.QueueInvStep Proofs.QueueStep.
Import ListNotations.
Open Scope Z_scope.

Lemma eff_ttl_pos ttl : 0 < eff_ttl ttl.
Proof.
  unfold eff_ttl. destruct (ttl <=? 0) eqn:E.
  - unfold mem_dequeue_leasettl_default. lia.
  - apply Z.leb_gt in E. exact E.
Qed.

Lemma clamp_batch_range b : 1 <= clamp_batch b <= mem_dequeue_batch_cap.
Proof.
  unfold clamp_batch, mem_dequeue_batch_default, mem_dequeue_batch_cap.
  destruct (b <=? 0) eqn:E1.
  - simpl. lia.
  - apply Z.leb_gt in E1. destruct (100 <? b) eqn:E2; [lia|]. apply Z.ltb_ge in E2. lia.
Qed.

(** every returned item is a message that was ready in the state the dequeue selected from
    (after retention pruning and the release of expired leases), comes back leased with a lease id
    never issued before, attempt + 1, and lease_until = now + ttl in the future *)
Theorem dequeue_sound fl c now route target batch ttl o s s' items :
  Inv s -> step_dequeue fl c now route target batch ttl o s = (s', RItems items) ->
  let s2 := deq_pre fl c now o s in
  NoDup (map (fun it => fst (fst (fst it))) items)
  /\ NoDup (map (fun it => snd (fst (fst it))) items)
  /\ Z.of_nat (length items) = Z.min (clamp_batch batch) (Z.of_nat (length (filter (ready now route target) (msgs s2))))
  /\ forall i lid att un, In (i, lid, att, un) items ->
       exists m0, find_id i (msgs s2) = Some m0 /\ ready now route target m0 = true
                  /\ find_id i (msgs s') = Some (leased_version now (eff_ttl ttl) lid m0)
                  /\ att = m_attempt m0 + 1 /\ un = now + eff_ttl ttl /\ now < un
                  /\ ~ In lid (issued s) /\ In lid (issued s').
Proof.
  intros I H. rewrite step_dequeue_eq in H. cbv zeta in H.
  pose proof (deq_pre_inv fl c now o s I) as I2.
  set (s2 := deq_pre fl c now o s) in *.
  destruct (valid_pick now route target (clamp_batch batch) (msgs s2) (issued s2) (o_picked o)) eqn:V; [|discriminate].
  injection H as Es' Eitems.
  pose proof (valid_pick_parts _ _ _ _ _ _ _ V) as [A [B [Cc [D E]]]].
  set (l3 := apply_pm (pm_lease now (eff_ttl ttl) (o_picked o)) (msgs s2)) in *.
  (* the items are the picked pairs, each with the attempt count and deadline of its message *)
  assert (Epairs : item_pairs (RItems items) = o_picked o) by (rewrite <- Eitems; apply item_pairs_RItems).
  change (map (fun it : N * N * Z * Z => fst (fst (fst it))) items) with (item_ids (RItems items)).
  change (map (fun it : N * N * Z * Z => snd (fst (fst it))) items) with (item_leases (RItems items)).
  rewrite item_ids_pairs, item_leases_pairs, Epairs. split; [exact A|]. split; [exact B|].
  split; [rewrite <- Eitems, map_length; exact E|].
  intros i lid att un Hin. rewrite <- Eitems in Hin. apply in_map_iff in Hin. destruct Hin as [[a b] [Ef Hp]]. simpl in Ef.
  destruct (Cc a (in_map fst _ _ Hp)) as [m0 [F R]].
  assert (Fl3 : find_id a l3 = Some (leased_version now (eff_ttl ttl) b m0)).
  { unfold l3. rewrite find_id_apply_pm; [|auto with qimm | apply I2]. rewrite F. unfold pm_lease.
    apply find_id_Some in F. destruct F as [_ Fid]. rewrite Fid, (lease_of_picked _ a b A Hp). reflexivity. }
  rewrite Fl3 in Ef. simpl in Ef. inversion Ef; subst i lid att un. rewrite <- Es'. simpl.
  exists m0. repeat split; auto.
  - pose proof (eff_ttl_pos ttl). lia.
  - intros Hin. apply (D b (in_map snd _ _ Hp)). unfold s2. rewrite deq_pre_issued. exact Hin.
  - apply in_or_app. right. apply (in_map snd _ _ Hp).
Qed.

(** a message that is leased and unexpired, not yet due, canceled, dead or delivered is never returned *)
Definition unavailable (now : Z) (m : msg) : bool :=
  match m_st m with
  | Queued => now <? m_next m
  | Leased => now <? m_until m
  | _ => true
  end.

Theorem dequeue_never_returns_unavailable fl c now route target batch ttl o s s' items m :
  Inv s -> step_dequeue fl c now route target batch ttl o s = (s', RItems items) ->
  In m (msgs s) -> unavailable now m = true ->
  ~ In (m_id m) (map (fun it => fst (fst (fst it))) items).
Proof.
  intros I H Hm Hu Hin.
  destruct (dequeue_sound fl c now route target batch ttl o s s' items I H) as [_ [_ [_ Hall]]].
  apply in_map_iff in Hin. destruct Hin as [[[[i lid] att] un] [Ei Hit]]. simpl in Ei. subst i.
  destruct (Hall _ _ _ _ Hit) as [m0 [F [R _]]].
  (* the message selected under [m]'s id is [m], or [m] released because its lease had run out *)
  apply (deq_pre_find _ _ _ _ _ _ _ I) in F. destruct F as [m1 [F1 Hm0]].
  rewrite (find_id_In_NoDup (msgs s) m (inv_nodup _ _ I) Hm) in F1. inversion F1; subst m1.
  unfold unavailable in Hu. destruct Hm0 as [E | [_ Ee]].
  - subst m0. apply ready_st in R. destruct R as [Es Rn]. rewrite Es in Hu. lia.
  - apply expired_st in Ee. destruct Ee as [Es Eu]. rewrite Es in Hu. lia.
Qed.

(** where a message found ready by a dequeue came from, in the form the monitors test it *)
Lemma deq_ready_origin fl c now route target o s i m0 :
  Inv s -> find_id i (msgs (deq_pre fl c now o s)) = Some m0 -> ready now route target m0 = true ->
  exists m, find_id i (msgs s) = Some m /\ m_attempt m0 = m_attempt m
    /\ opt_match route (m_route m) && opt_match target (m_target m)
       && ((queuedb m && (m_next m <=? now)) || expired now m) = true.
Proof.
  intros I F R. destruct (deq_pre_find fl c now o s i m0 I F) as [m [Fb Hm0]]. exists m. split; [exact Fb|].
  unfold ready in R. rewrite !andb_true_iff in R. destruct R as [[[Rq Rr] Rt] Rn].
  destruct Hm0 as [-> | [-> Ee]].
  - rewrite Rr, Rt, Rq, Rn. split; reflexivity.
  - cbn [release upd m_route m_target] in Rr, Rt. rewrite Rr, Rt, Ee, orb_true_r. split; reflexivity.
Qed.

Lemma dequeued_item fl c now route target batch ttl o s s' items i l att un :
  Inv s -> step_dequeue fl c now route target batch ttl o s = (s', RItems items) -> In (i, l, att, un) items ->
  exists m lv, find_id i (msgs s) = Some m /\ att = m_attempt m + 1
    /\ find_id i (msgs s') = Some lv /\ m_lease lv = Some l /\ is_leased lv = true /\ m_until lv = un /\ m_attempt lv = att.
Proof.
  intros I Hd Hin.
  destruct (dequeue_sound fl c now route target batch ttl o s s' items I Hd) as [_ [_ [_ Hitem]]].
  destruct (Hitem i l att un Hin) as [m0 [F0 [_ [F1 [Eatt [Eun _]]]]]].
  destruct (deq_pre_find fl c now o s i m0 I F0) as [m [Fm Hm0]].
  exists m, (leased_version now (eff_ttl ttl) l m0). split; [exact Fm|].
  split; [destruct Hm0 as [-> | [-> _]]; exact Eatt|]. subst att un. repeat split. exact F1.
Qed.

Theorem lease_ends_legally c x r m m' l :
  change c x r m m' -> m_lease m = Some l -> is_leased m = true -> m_lease m' <> Some l ->
  (expired (op_now x) m = true /\ releases x = true)
  \/ (In l (presented x) /\ op_now x < m_until m /\ exists k, lease_op_kind x = Some k /\ is_extend k = false)
  \/ manage_kind_of x = Some MCancel.
Proof.
  intros H L Il Hne.
  destruct H as [E | Hr He _ E | route target b ttl lid m0 Ex H0 Hrd _ _ E | k lid Hk Hp Hl _ Hu _ _ E | k Hk Ha _ E].
  - subst. contradiction.
  - left. split; assumption.
  - destruct H0 as [H0 | [He H0]]; subst m0.
    + apply ready_st in Hrd. apply is_leased_st in Il. destruct Hrd. congruence.
    + left. split; [exact He | rewrite Ex; reflexivity].
  - right. left. assert (lid = l) by congruence. subst lid. split; [exact Hp|]. split; [exact Hu|].
    exists k. split; [exact Hk|]. destruct k; try reflexivity.
    exfalso. unfold lease_effect in E. inversion E; subst. simpl in Hne. contradiction.
  - right. right. rewrite (is_leased_st m Il) in Ha. destruct k; try discriminate. exact Hk.
Qed.

Definition InvI (s : state) : Prop := Inv s /\ NoDup (issued s).

Lemma step_issued fl c s x o :
  (issued (fst (step fl c s x o)) = issued s /\ item_leases (snd (step fl c s x o)) = [])
  \/ (exists now route target batch ttl, x = Dequeue now route target batch ttl
      /\ issued (fst (step fl c s x o)) = issued s ++ map snd (o_picked o)
      /\ NoDup (map snd (o_picked o)) /\ (forall l, In l (map snd (o_picked o)) -> ~ In l (issued s))
      /\ item_leases (snd (step fl c s x o)) = map snd (o_picked o)).
Proof.
  destruct (is_dequeue x) eqn:Dq; [|left; apply (proj2 (proj2 (step_frame fl c s x o)) Dq)].
  destruct x; try discriminate Dq. cbn [step]. rewrite step_dequeue_eq. cbv zeta.
  destruct (valid_pick now route target (clamp_batch batch) _ _ (o_picked o)) eqn:V.
  - right. exists now, route, target, batch, ttl. split; [reflexivity|]. cbn [fst snd issued].
    apply valid_pick_parts in V. destruct V as [_ [B [_ [D _]]]]. rewrite deq_pre_issued in *.
    split; [reflexivity|]. split; [exact B|]. split; [exact D|].
    rewrite item_leases_pairs, item_pairs_RItems. reflexivity.
  - left. simpl. split; [apply deq_pre_issued | reflexivity].
Qed.

Lemma step_invI fl c s x o : InvI s -> InvI (fst (step fl c s x o)).
Proof.
  intros [I ND]. split; [apply step_inv; exact I|].
  destruct (step_issued fl c s x o) as [[E _] | [now [route [target [batch [ttl [_ [E [B [D _]]]]]]]]]]; rewrite E; [exact ND|].
  apply NoDup_app_intro; [exact ND | exact B|]. intros l H1 H2. apply (D l H2 H1).
Qed.

(** all lease ids handed out along a history, in order *)
Definition handed_out (evs : list event) : list N := flat_map (fun e => item_leases (ev_res e)) evs.

Lemma step_handed_out fl c s x o :
  issued (fst (step fl c s x o)) = issued s ++ item_leases (snd (step fl c s x o)).
Proof.
  destruct (step_issued fl c s x o) as [[E Hn] | [now [route [target [batch [ttl [Ex [E [_ [_ Er]]]]]]]]]].
  - rewrite E, Hn, app_nil_r. reflexivity.
  - rewrite E, Er. reflexivity.
Qed.

Theorem handed_out_is_issued fl c s xs :
  issued (snd (run fl c s xs)) = issued s ++ handed_out (fst (run fl c s xs)).
Proof.
  revert s. induction xs as [|[x o] tl IH]; intros s; simpl; [rewrite app_nil_r; reflexivity|].
  pose proof (step_handed_out fl c s x o) as Hs.
  destruct (step fl c s x o) as [s' r]. simpl in Hs. specialize (IH s').
  destruct (run fl c s' tl) as [evs sf]. simpl in *. rewrite IH, Hs, app_assoc. reflexivity.
Qed.

Lemma run_invI fl c s xs : InvI s -> InvI (snd (run fl c s xs)).
Proof. apply run_invariant. intros s0 x o. apply step_invI. Qed.

