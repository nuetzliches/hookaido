(** The invariant of every reachable queue state: each id is stored once, every message is in
    exactly one coherent state (leased iff it carries a lease), lease ids are never shared and
    were all issued by a dequeue. *)
From Coq Require Import List ZArith NArith Bool.
From HK Require Import Model.Queue Model.QueueMon Proofs.ListFacts Proofs.QueueBase.
Import ListNotations.
Open Scope Z_scope.

Definition lease_inj (l : list msg) : Prop :=
  forall m1 m2 x, In m1 l -> In m2 l -> m_lease m1 = Some x -> m_lease m2 = Some x -> m1 = m2.

Record InvL (l : list msg) (iss : list N) : Prop := mkInvL {
  inv_nodup : NoDup (ids l);
  inv_coh : forall m, In m l -> coherent m = true;
  inv_linj : lease_inj l;
  inv_liss : forall m x, In m l -> m_lease m = Some x -> In x iss }.

Definition Inv (s : state) : Prop := InvL (msgs s) (issued s).

Lemma inv_init : Inv init.
Proof.
  constructor; simpl; try (intros; contradiction).
  - constructor.
  - intros m1 m2 x H; contradiction.
Qed.

Lemma nodup_ids_inj l m1 m2 : NoDup (ids l) -> In m1 l -> In m2 l -> m_id m1 = m_id m2 -> m1 = m2.
Proof. apply (NoDup_map_inj m_id). Qed.

(** [x'] may stand where [x] stood without harm to the invariant *)
Definition tame (x x' : msg) : Prop :=
  m_id x' = m_id x /\ coherent x' = true /\ (m_lease x' = m_lease x \/ m_lease x' = None).

Definition tame_on (l : list msg) (pm : msg -> option msg) : Prop :=
  forall x x', In x l -> pm x = Some x' -> tame x x'.

Lemma invl_apply_pm l iss pm : InvL l iss -> tame_on l pm -> InvL (apply_pm pm l) iss.
Proof.
  intros [ND CO LI LS] T. constructor.
  - apply apply_pm_NoDup_on; [|exact ND]. intros x x' A B. apply (T x x' A B).
  - intros m Hm. apply apply_pm_In in Hm. destruct Hm as [m0 [H0 Ep]]. apply (T m0 m H0 Ep).
  - intros m1 m2 x H1 H2 L1 L2.
    apply apply_pm_In in H1. destruct H1 as [a [Ha Ea]].
    apply apply_pm_In in H2. destruct H2 as [b [Hb Eb]].
    destruct (T a m1 Ha Ea) as [_ [_ [La | La]]]; [|congruence].
    destruct (T b m2 Hb Eb) as [_ [_ [Lb | Lb]]]; [|congruence].
    assert (a = b) by (apply (LI a b x); congruence). subst b. congruence.
  - intros m x Hm L. apply apply_pm_In in Hm. destruct Hm as [a [Ha Ea]].
    destruct (T a m Ha Ea) as [_ [_ [La | La]]]; [|congruence].
    apply (LS a x Ha). congruence.
Qed.

Lemma tame_refl x : coherent x = true -> tame x x.
Proof. intros C. split; [reflexivity|]. split; [exact C | left; reflexivity]. Qed.

Lemma tame_cleared x x' : m_id x' = m_id x -> coherent x' = true -> m_lease x' = None -> tame x x'.
Proof. intros A B C. split; [exact A|]. split; [exact B | right; exact C]. Qed.

Lemma coherent_release now m : coherent (release now m) = true.
Proof. reflexivity. Qed.

Lemma tame_release now x : tame x (release now x).
Proof. apply tame_cleared; reflexivity. Qed.

Lemma tame_manage_effect now k x x' : manage_effect now k x = Some x' -> tame x x'.
Proof. unfold manage_effect. destruct k; intros E; inversion E; apply tame_cleared; reflexivity. Qed.

Lemma tame_lease_effect c now k x x' y : m_lease x = Some y -> lease_effect c now k x = Some x' -> tame x x'.
Proof.
  intros L E. unfold lease_effect in E. destruct k.
  - destruct (0 <? c_deliv_age c); inversion E. apply tame_cleared; reflexivity.
  - inversion E. apply tame_cleared; reflexivity.
  - (* extend keeps the lease of a leased message *)
    inversion E. split; [reflexivity|]. split; [|left; reflexivity]. unfold coherent; simpl. rewrite L. reflexivity.
  - inversion E. apply tame_cleared; reflexivity.
Qed.

Lemma tame_filter l pm : (forall m m', pm m = Some m' -> m' = m) -> (forall m, In m l -> coherent m = true) -> tame_on l pm.
Proof. intros F CO x x' Hx E. apply F in E. subst. apply tame_refl, CO, Hx. Qed.

Lemma tame_guard l b f :
  (forall m, In m l -> coherent m = true) ->
  (forall x x', In x l -> b x = true -> f x = Some x' -> tame x x') -> tame_on l (pm_guard b f).
Proof.
  intros CO Hf x x' Hx E. unfold pm_guard in E. destruct (b x) eqn:Eb; [apply Hf; assumption|].
  inversion E; subst. apply tame_refl, CO, Hx.
Qed.

Lemma inv_prune c now hint s : Inv s -> Inv (prune c now hint s).
Proof.
  intros I. unfold Inv. rewrite prune_msgs_eq, prune_issued.
  apply invl_apply_pm; [exact I|]. apply tame_filter; [apply prune_pm_same | apply I].
Qed.

Lemma invl_sweep l iss now : InvL l iss -> InvL (sweep now l) iss.
Proof.
  intros I. apply invl_apply_pm; [exact I|].
  apply (tame_guard l (expired now) (fun x => Some (release now x))); [apply I|].
  intros x x' _ _ E. inversion E. apply tame_release.
Qed.

Lemma invl_remove l iss vs : InvL l iss -> InvL (apply_pm (pm_remove_ids vs) l) iss.
Proof.
  intros I. apply invl_apply_pm; [exact I|]. apply tame_filter; [apply pm_remove_ids_same | apply I].
Qed.

Lemma sql_make_room_inv c fuel need hint l l2 iss :
  sql_make_room c fuel need hint l = Some l2 -> InvL l iss -> InvL l2 iss.
Proof.
  revert need l. induction fuel as [|f IH]; simpl; intros need l H I.
  - destruct (need <=? c_max_depth c); inversion H; subst; exact I.
  - destruct (need <=? c_max_depth c); [inversion H; subst; exact I|].
    destruct (sql_victim hint l) as [v|]; [|discriminate].
    apply (IH _ _ H). apply invl_remove. exact I.
Qed.

Lemma coherent_mk_msg now i e : coherent (mk_msg now i e) = true.
Proof. reflexivity. Qed.

Lemma invl_app_news l iss now (ies : list (N * enq)) :
  InvL l iss -> NoDup (map fst ies) -> (forall i, In i (map fst ies) -> ~ In i (ids l)) ->
  InvL (l ++ map (fun p => mk_msg now (fst p) (snd p)) ies) iss.
Proof.
  intros [ND CO LI LS] NDn Fresh.
  set (news := map (fun p => mk_msg now (fst p) (snd p)) ies).
  assert (Eids : ids news = map fst ies) by apply map_map.
  assert (New : forall m, In m news -> coherent m = true /\ m_lease m = None).
  { intros m Hm. apply in_map_iff in Hm. destruct Hm as [p [E _]]. subst. split; reflexivity. }
  constructor.
  - unfold ids. rewrite map_app. fold (ids l) (ids news). rewrite Eids.
    apply NoDup_app_intro; [exact ND | exact NDn |]. intros i Hi Hn. apply (Fresh i Hn Hi).
  - intros m Hm. apply in_app_or in Hm. destruct Hm as [Hm | Hm]; [apply CO | apply New]; exact Hm.
  - intros m1 m2 x H1 H2 L1 L2.
    apply in_app_or in H1. apply in_app_or in H2.
    destruct H1 as [H1 | H1]; [|apply New in H1; destruct H1; congruence].
    destruct H2 as [H2 | H2]; [|apply New in H2; destruct H2; congruence].
    apply (LI m1 m2 x); assumption.
  - intros m x Hm L. apply in_app_or in Hm. destruct Hm as [Hm | Hm]; [apply (LS m x Hm L)|].
    apply New in Hm. destruct Hm. congruence.
Qed.
