(** The audit log of a whole MCP session (internal/mcp/server.go: callTool + emitMutationAuditEvent).
    A session is any list of tools/call requests [(tool, body_ok)] served under one server setting;
    the log is the concatenation of what each call appends.  The per-call facts of
    Proofs/McpGateProofs.v lift to: the log holds exactly one record per call of a mutating tool, in
    call order, nothing else - denied calls included, calls of read-only and unknown tools excluded. *)
From Coq Require Import String List Bool.
From HK Require Import Model.McpGate Proofs.McpGateProofs.
Import ListNotations.
Open Scope list_scope.

Definition mcp_call := (string * bool)%type.

Definition session_audit (s : srv) (calls : list mcp_call) : list audit_result :=
  flat_map (fun c => audit s (fst c) (snd c)) calls.

(** the record the property demands for one call of a mutating tool *)
Definition record_of (s : srv) (c : mcp_call) : audit_result :=
  match access s (fst c) with
  | Allowed => if snd c then ASuccess else AError
  | Denied _ => ADenied
  end.

Definition is_mutating (c : mcp_call) : bool := mutating (fst c).

Lemma audit_is_record s t b : mutating t = true -> audit s t b = [record_of s (t, b)].
Proof. apply audit_mutating. Qed.

Lemma session_audit_cons s c tl :
  session_audit s (c :: tl) = audit s (fst c) (snd c) ++ session_audit s tl.
Proof. reflexivity. Qed.

Lemma session_audit_app s c1 c2 :
  session_audit s (c1 ++ c2) = session_audit s c1 ++ session_audit s c2.
Proof. unfold session_audit. apply flat_map_app. Qed.

Lemma session_audit_exact s calls :
  session_audit s calls = map (record_of s) (filter is_mutating calls).
Proof.
  induction calls as [|[t b] tl IH]; [reflexivity|].
  rewrite session_audit_cons. cbn [filter fst snd]. unfold is_mutating at 1. cbn [fst].
  destruct (mutating t) eqn:Hm.
  - rewrite (audit_is_record s t b Hm), IH. reflexivity.
  - rewrite (audit_none s t b Hm). exact IH.
Qed.
