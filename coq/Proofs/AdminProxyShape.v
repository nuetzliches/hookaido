(** C14, MCP Admin-proxy mode: what the queue-mutation tool functions of internal/mcp/server.go send through
    callAdminJSON, read off Gen/AdminProxy.v, which translate/adminproxy.go regenerates from the Go source on every run.
    Properties/C14proxy.v says what these calls have to be for the source to have the shape Model/ManageProxy.v assumes. *)
From Coq Require Import List ZArith Bool String.
From HK Require Import Gen.AdminProxy.
Import ListNotations.
Open Scope Z_scope.
Open Scope string_scope.

Definition lookup_calls (n : string) : list (string * string) :=
  match find (fun e => String.eqb (fst e) n) ap_tool_calls with Some e => snd e | None => [] end.

(** the Go functions of the queue-mutation tools, each with its callAdminJSON calls (method, path) *)
Definition mutation_tool_calls : list (string * list (string * string)) :=
  map (fun n => (n, lookup_calls n))
      ["toolMessagesCancel"; "toolMessagesRequeue"; "toolMessagesResume"; "toolDLQRequeue"; "toolDLQDelete";
       "toolMessagesCancelByFilter"; "toolMessagesRequeueByFilter"; "toolMessagesResumeByFilter"].
