(** The attempt log (Model/Attempts.v): [record] appends or refuses, so a log after any operations
    is an extension of the log before and keeps non-blank ids unique; a listing is a prefix of the
    sorted matching attempts. *)
From Coq Require Import ZArith NArith List Bool Sorting.Permutation Sorting.Sorted Lia.
From HK Require Import Model.Attempts Proofs.ListFacts.
Import ListNotations.
Open Scope Z_scope.

Lemma record_fresh : forall log a, dup_id log a = false -> record log a = (log ++ [norm a], true).
Proof. intros log a H. unfold record. now rewrite H. Qed.

Lemma record_dup : forall log a, dup_id log a = true -> record log a = (log, false).
Proof. intros log a H. unfold record. now rewrite H. Qed.

Lemma has_id_in : forall log i, has_id log i = false -> ~ In i (map a_id log).
Proof.
  intros log i H Hin. apply in_map_iff in Hin as [a [E Ha]].
  apply not_true_iff_false in H. apply H, existsb_exists. exists a. split; [exact Ha | now apply N.eqb_eq].
Qed.

Lemma in_has_id : forall log i, ~ In i (map a_id log) -> has_id log i = false.
Proof.
  intros log i H. apply not_true_iff_false. intros E. apply existsb_exists in E as [a [Ha E]].
  apply H, in_map_iff. exists a. split; [now apply N.eqb_eq | exact Ha].
Qed.

Definition extends (log log' : list att) : Prop := exists ext, log' = log ++ ext.

Lemma extends_refl : forall log, extends log log.
Proof. intros log. exists []. now rewrite app_nil_r. Qed.

Lemma extends_trans : forall a b c, extends a b -> extends b c -> extends a c.
Proof. intros a b c [e1 ->] [e2 ->]. exists (e1 ++ e2). now rewrite app_assoc. Qed.

Lemma rec1_ext : forall log a, extends log (rec1 log a).
Proof.
  intros log a. unfold rec1, record. destruct (dup_id log a); cbn [fst]; [apply extends_refl|].
  exists [norm a]. reflexivity.
Qed.

Lemma fold_extends {B : Type} (f : list att -> B -> list att) :
  (forall l b, extends l (f l b)) -> forall bs log, extends log (fold_left f bs log).
Proof.
  intros Hf bs log. apply fold_left_inv; [|apply extends_refl].
  intros l b H. exact (extends_trans _ _ _ H (Hf l b)).
Qed.

Lemma astep_ext : forall log o, extends log (fst (astep log o)).
Proof.
  intros log [a|s n|q]; cbn [astep fst];
    [apply rec1_ext | apply fold_extends, rec1_ext | apply extends_refl].
Qed.

Lemma log_after_ext : forall ops log, exists ext, log_after log ops = log ++ ext.
Proof. intros ops log. exact (fold_extends _ astep_ext ops log). Qed.

Lemma log_after_app : forall ops1 ops2 log, log_after log (ops1 ++ ops2) = log_after (log_after log ops1) ops2.
Proof. intros. unfold log_after. now rewrite fold_left_app. Qed.

(** attempts whose ids are distinct and not in the log - blank ones included, the store generates
    their ids - are all accepted, in order *)
Lemma fold_rec1_distinct : forall xs log,
  NoDup (map a_id xs) -> (forall x, In x xs -> ~ In (a_id x) (map a_id log)) ->
  fold_left rec1 xs log = log ++ map norm xs.
Proof.
  induction xs as [|x xs IH]; intros log ND F; cbn [fold_left map]; [now rewrite app_nil_r|].
  inversion ND as [|? ? Hx ND']; subst.
  assert (E : rec1 log x = log ++ [norm x]).
  { unfold rec1. rewrite record_fresh; [reflexivity|]. unfold dup_id.
    rewrite (in_has_id log (a_id x)) by (apply F; now left). apply andb_false_r. }
  rewrite E, IH, <- app_assoc; [reflexivity | exact ND' |].
  intros y Hy. rewrite map_app, in_app_iff. intros [H | [H | []]].
  - exact (F y (or_intror Hy) H).
  - apply Hx. change (a_id (norm x)) with (a_id x) in H. rewrite H. now apply in_map.
Qed.

Lemma fold_rec1_blank_ids : forall xs log,
  Forall (fun a => a_id a = 0%N) xs -> fold_left rec1 xs log = log ++ map norm xs.
Proof.
  induction xs as [|x xs IH]; intros log H; cbn [fold_left map].
  - now rewrite app_nil_r.
  - inversion H as [|y ys Hx Hxs]; subst.
    rewrite IH by exact Hxs. unfold rec1, record, dup_id. rewrite Hx. cbn [N.eqb negb andb fst].
    now rewrite <- app_assoc.
Qed.

Definition ids_unique (log : list att) : Prop :=
  NoDup (filter (fun i => negb (N.eqb i 0)) (map a_id log)).

Lemma rec1_unique : forall log a, ids_unique log -> ids_unique (rec1 log a).
Proof.
  intros log a U. unfold rec1, record. destruct (dup_id log a) eqn:D; cbn [fst]; [exact U|].
  unfold ids_unique in *. rewrite map_app, filter_app. cbn [map filter]. change (a_id (norm a)) with (a_id a).
  unfold dup_id in D. destruct (N.eqb (a_id a) 0); cbn [negb andb] in *.
  - now rewrite app_nil_r.
  - apply NoDup_snoc; [exact U|].
    intros Hin. apply filter_In in Hin as [Hin _]. exact (has_id_in _ _ D Hin).
Qed.

Lemma newer_eq_trans : forall a b c, newer_eq a b = true -> newer_eq b c = true -> newer_eq a c = true.
Proof.
  unfold newer_eq; intros a b c H1 H2.
  rewrite orb_true_iff, andb_true_iff, Z.ltb_lt, Z.eqb_eq, N.leb_le in *. lia.
Qed.

Lemma sorted_strong : forall l, StronglySorted (fun a b => is_true (newer_eq a b)) (AttSort.sort l).
Proof.
  intros l. apply Sorted_StronglySorted.
  - intros a b c H1 H2. unfold is_true in *. eapply newer_eq_trans; eassumption.
  - apply AttSort.Sorted_sort.
Qed.

Lemma strong_cut : forall (R : att -> att -> Prop) n l, StronglySorted R l ->
  StronglySorted R (firstn n l) /\ forall a b, In a (firstn n l) -> In b (skipn n l) -> R a b.
Proof.
  intros R n l S. rewrite <- (firstn_skipn n l) in S. revert S.
  generalize (firstn n l), (skipn n l). intros l1 l2. induction l1 as [|x l1 IH]; cbn [app]; intros S.
  - split; [constructor | intros a b []].
  - inversion S as [|? ? S' F]; subst. destruct (IH S') as [S1 C]. split.
    + constructor; [exact S1|]. rewrite Forall_forall in *. intros y Hy. apply F, in_or_app. now left.
    + intros a b [<- | Ha] Hb; [|now apply C]. rewrite Forall_forall in F. apply F, in_or_app. now right.
Qed.

Corollary list_attempts_complete_under_limit : forall log q a,
  (length (filter (matches q) log) <= eff_limit q)%nat ->
  In a log -> matches q a = true -> In a (list_attempts log q).
Proof.
  intros log q a Hl Hin Hm. unfold list_attempts.
  rewrite firstn_all2 by (rewrite <- (Permutation_length (AttSort.Permuted_sort _)); exact Hl).
  eapply Permutation_in; [apply AttSort.Permuted_sort|]. apply filter_In. split; assumption.
Qed.

(** the harness' bulk generator [gen_from]: ids [start+1 ..], events 100 .. 139 *)
Lemma gen_from_length : forall n s, length (gen_from s n) = n.
Proof. induction n as [|n IH]; intros s; cbn [gen_from length]; [reflexivity | now rewrite IH]. Qed.

Lemma gen_from_In : forall n s x, In x (gen_from s n) -> exists i, s <= i < s + Z.of_nat n /\ x = gen_att i.
Proof.
  induction n as [|n IH]; intros s x; cbn [gen_from In]; [intros []|].
  intros [<- | H]; [exists s; split; [lia | reflexivity]|].
  destruct (IH _ _ H) as [i [Hi E]]. exists i. split; [lia | exact E].
Qed.

Lemma gen_from_NoDup : forall n s, 0 <= s -> NoDup (map a_id (gen_from s n)).
Proof.
  induction n as [|n IH]; intros s Hs; cbn [gen_from map]; constructor; [|apply IH; lia].
  intros H. apply in_map_iff in H as [x [E Hx]]. apply gen_from_In in Hx as [i [Hi ->]].
  cbn [gen_att a_id] in E. lia.
Qed.

Lemma gen_att_event : forall i, (100 <= a_event (gen_att i))%N.
Proof. intros i. cbn [gen_att a_event]. pose proof (Z.mod_pos_bound i 40). lia. Qed.

Lemma matches_event : forall q a, matches q a = true -> q_event q = 0%N \/ q_event q = a_event a.
Proof.
  unfold matches, crit. intros q a H. rewrite !andb_true_iff in H. destruct H as [[[[_ _] H] _] _].
  now rewrite orb_true_iff, !N.eqb_eq in H.
Qed.
