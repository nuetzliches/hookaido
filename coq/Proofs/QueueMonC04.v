(** The C04 monitor (lease fencing) is sound for the model: [c04_event] is [true] at every event
    of every model trace of Store-interface operations ([store_lease_op]: there is no batch Extend).  The batch clauses need exact counts: the number of leases a batch
    settles is the number of stored messages whose current, unexpired lease it presents, and the
    number of conflicts classified "expired" is the number of stored messages whose expired lease
    it presents. *)
From Coq Require Import List ZArith NArith Bool Lia.
From HK Require Import Model.Queue Model.QueueMon Proofs.ListFacts Proofs.QueueBase Proofs.QueueInv
  Proofs.QueueInvStep Proofs.QueueStep Proofs.QueueFence Proofs.QueueMonSound.
Import ListNotations.
Open Scope Z_scope.

Lemma filter_len_diff_at (f g : msg -> bool) l m :
  NoDup l -> In m l -> (forall y, In y l -> y <> m -> f y = g y) -> g m = false ->
  length (filter f l) = (length (filter g l) + if f m then 1 else 0)%nat.
Proof.
  induction l as [|x tl IH]; intros ND Hin Hext Hg; [destruct Hin|].
  inversion ND as [|? ? Hx Htl]; subst. cbn [filter]. destruct Hin as [E | Hin].
  - subst x. rewrite Hg, (filter_ext_in f g tl).
    + destruct (f m); cbn [length]; lia.
    + intros y Hy. apply Hext; [right; exact Hy | intros E; subst; contradiction].
  - assert (Nx : x <> m) by (intros E; subst; contradiction).
    assert (IH' : length (filter f tl) = (length (filter g tl) + if f m then 1 else 0)%nat).
    { apply (IH Htl Hin); [|exact Hg]. intros y Hy. apply Hext. right. exact Hy. }
    rewrite (Hext x (or_introl eq_refl) Nx). destruct (g x); cbn [length]; lia.
Qed.

Lemma count_pm_on_id (P Q : msg -> bool) f l m :
  NoDup (ids l) -> In m l -> (forall y, In y l -> y <> m -> Q y = P y) ->
  match f m with Some m' => P m' = false | None => True end ->
  length (filter Q l) = (length (filter P (apply_pm (pm_on_id (m_id m) f) l)) + if Q m then 1 else 0)%nat.
Proof.
  intros ND Hm Hoth Hf. rewrite filter_apply_pm_length.
  apply filter_len_diff_at; [apply (NoDup_map_inv _ _ ND) | exact Hm | |].
  - intros y Hy Ny. unfold pm_on_id. destruct (N.eqb (m_id y) (m_id m)) eqn:E; [|apply Hoth; assumption].
    exfalso. apply Ny, (nodup_ids_inj l); [exact ND | exact Hy | exact Hm | apply N.eqb_eq; exact E].
  - unfold pm_on_id. rewrite N.eqb_refl. destruct (f m); [exact Hf | reflexivity].
Qed.

Lemma lease_one_cases c now k x l iss l' out :
  InvL l iss -> lease_one c now k x l = (l', out) ->
  (out = LConflict false /\ l' = l /\ forall y, In y l -> m_lease y <> Some x)
  \/ exists m f, In m l /\ m_lease m = Some x /\ is_leased m = true
       /\ (forall y, In y l -> y <> m -> m_lease y <> Some x)
       /\ l' = apply_pm (pm_on_id (m_id m) f) l
       /\ ((m_until m <= now /\ out = LConflict true /\ f = (fun y => Some (release now y)))
           \/ (now < m_until m /\ out = LOk /\ f = lease_effect c now k)).
Proof.
  intros I H. unfold lease_one in H.
  destruct (find_lease x l) as [m|] eqn:F.
  2:{ inversion H; subst. left. split; [reflexivity|]. split; [reflexivity|]. apply (find_lease_None x l' F). }
  apply find_lease_Some in F. destruct F as [Hm Lm].
  pose proof (lease_is_leased m x (inv_coh _ _ I m Hm) Lm) as El. rewrite El in H. cbn [negb] in H.
  assert (Huniq : forall y, In y l -> y <> m -> m_lease y <> Some x).
  { intros y Hy Ny Ly. apply Ny, (inv_linj _ _ I y m x); assumption. }
  right. exists m. destruct (m_until m <=? now) eqn:Eu; inversion H; subst l' out.
  - exists (fun y => Some (release now y)). apply Z.leb_le in Eu. repeat split; auto.
  - exists (lease_effect c now k). apply Z.leb_gt in Eu. repeat split; auto.
Qed.

(** what a batch that presents the lease ids [pres] meets in the store: [curb] - a message whose current, unexpired lease is
    presented; [expb] - one whose expired lease is presented; [truecount] - the conflicts the answer flags as expired *)
Definition presents_in (pres : list N) (m : msg) : bool :=
  match m_lease m with Some l => memN l pres | None => false end.

Definition curb (now : Z) (pres : list N) (m : msg) : bool := presents_in pres m && is_leased m && (now <? m_until m).
Definition expb (now : Z) (pres : list N) (m : msg) : bool := presents_in pres m && expired now m.

Lemma presents_in_cons_other x pres y : m_lease y <> Some x -> presents_in (x :: pres) y = presents_in pres y.
Proof.
  unfold presents_in. destruct (m_lease y) as [l|]; [|reflexivity]. intros H. rewrite memN_cons.
  destruct (N.eqb l x) eqn:E; [apply N.eqb_eq in E; subst; contradiction | reflexivity].
Qed.

Lemma presents_in_cons_self x pres m : m_lease m = Some x -> presents_in (x :: pres) m = true.
Proof. unfold presents_in. intros H. rewrite H, memN_cons, N.eqb_refl. reflexivity. Qed.

Lemma presents_in_nil m : presents_in [] m = false.
Proof. unfold presents_in. destruct (m_lease m); reflexivity. Qed.

Lemma not_leased_curb now pres m : is_leased m = false -> curb now pres m = false.
Proof. unfold curb. intros H. rewrite H. rewrite andb_false_r. reflexivity. Qed.

Lemma not_leased_expb now pres m : is_leased m = false -> expb now pres m = false.
Proof. unfold expb, expired. intros H. rewrite H. rewrite andb_false_r. reflexivity. Qed.

Definition truecount (cs : list (cref * bool)) : nat := length (filter (fun p : cref * bool => snd p) cs).

Lemma curb_cons_other now x pres y : m_lease y <> Some x -> curb now (x :: pres) y = curb now pres y.
Proof. intros H. unfold curb. rewrite (presents_in_cons_other x pres y H). reflexivity. Qed.

Lemma expb_cons_other now x pres y : m_lease y <> Some x -> expb now (x :: pres) y = expb now pres y.
Proof. intros H. unfold expb. rewrite (presents_in_cons_other x pres y H). reflexivity. Qed.

(** what settling or releasing the one holder [m] of lease id [x] does to a count [P] that looks only at
    leased messages presenting one of the batch's ids: [m] leaves the count, nobody else moves *)
Lemma count_holder (P : list N -> msg -> bool) x pres f l m :
  (forall y, is_leased y = false -> P pres y = false) ->
  (forall y, m_lease y <> Some x -> P (x :: pres) y = P pres y) ->
  NoDup (ids l) -> In m l -> (forall y, In y l -> y <> m -> m_lease y <> Some x) ->
  match f m with Some m' => is_leased m' = false | None => True end ->
  length (filter (P (x :: pres)) l)
  = (length (filter (P pres) (apply_pm (pm_on_id (m_id m) f) l)) + if P (x :: pres) m then 1 else 0)%nat.
Proof.
  intros Hnl Hoth ND Hm Huniq Hf. apply count_pm_on_id; [exact ND | exact Hm | intros y Hy Ny; apply Hoth, Huniq; assumption |].
  destruct (f m); [apply Hnl, Hf | exact I].
Qed.

Lemma lease_batch_counts c now k ls : forall ms iss,
  batch_kind_ok k = true -> InvL ms iss ->
  let '(ms', n, cs) := lease_batch c now k ls ms in
  n = Z.of_nat (length (filter (curb now (known_leases ls)) ms))
  /\ Z.of_nat (length cs) = Z.of_nat (length ls) - n
  /\ truecount cs = length (filter (expb now (known_leases ls)) ms).
Proof.
  induction ls as [|l tl IH]; intros ms iss Hk I.
  - cbn [lease_batch known_leases]. unfold truecount. cbn [filter length].
    rewrite (filter_none (curb now [])), (filter_none (expb now [])); [repeat split | |].
    + intros y _. unfold expb. rewrite presents_in_nil. reflexivity.
    + intros y _. unfold curb. rewrite presents_in_nil. reflexivity.
  - destruct l as [x p| |]; cbn [lease_batch known_leases length]; rewrite Nat2Z.inj_succ.
    2, 3: (* a blank or unknown reference: a conflict, not an expired one *)
      specialize (IH ms iss Hk I); destruct (lease_batch c now k tl ms) as [[ms' n] cs]; destruct IH as [A [B Cc]];
      cbn [length]; repeat split; [exact A | lia | exact Cc].
    set (pres := known_leases tl).
    destruct (lease_one c now k x ms) as [ms1 out] eqn:E.
    specialize (IH ms1 iss Hk (lease_one_inv _ _ _ _ _ _ _ _ E I)). fold pres in IH.
    destruct (lease_one_cases c now k x ms iss ms1 out I E) as [[Eo [E1 Hnone]] | [m [f [Hm [Lm [Il [Huniq [E1 Hcase]]]]]]]].
    + (* nobody holds x: a conflict, not an expired one *)
      subst out ms1. destruct (lease_batch c now k tl ms) as [[ms' n] cs]. destruct IH as [A [B Cc]].
      rewrite (filter_ext_in (curb now (x :: pres)) (curb now pres)), (filter_ext_in (expb now (x :: pres)) (expb now pres)).
      * unfold truecount in *. cbn [filter snd length]. repeat split; [exact A | lia | exact Cc].
      * intros y Hy. apply expb_cons_other, Hnone, Hy.
      * intros y Hy. apply curb_cons_other, Hnone, Hy.
    + assert (Hf : match f m with Some m' => is_leased m' = false | None => True end).
      { destruct Hcase as [[_ [_ Ef]] | [_ [_ Ef]]]; subst f; [reflexivity|].
        destruct (lease_effect c now k m) as [m1|] eqn:Ef; [apply (lease_effect_clears c now k m m1 Hk Ef) | exact Logic.I]. }
      rewrite (count_holder (curb now) x pres f ms m (not_leased_curb now pres) (curb_cons_other now x pres) (inv_nodup _ _ I) Hm Huniq Hf),
        (count_holder (expb now) x pres f ms m (not_leased_expb now pres) (expb_cons_other now x pres) (inv_nodup _ _ I) Hm Huniq Hf).
      rewrite <- E1. unfold curb at 2, expb at 2, expired. rewrite (presents_in_cons_self x pres m Lm), Il. cbn [andb].
      destruct (lease_batch c now k tl ms1) as [[ms' n] cs]. destruct IH as [A [B Cc]]. unfold truecount in *.
      destruct Hcase as [[Hu [Eo _]] | [Hu [Eo _]]]; subst out; cbn [filter snd length].
      * (* expired holder: released, one "expired" conflict *)
        rewrite (proj2 (Z.ltb_ge _ _) Hu), (proj2 (Z.leb_le _ _) Hu). repeat split; lia.
      * (* current holder: settled *)
        rewrite (proj2 (Z.ltb_lt _ _) Hu), (proj2 (Z.leb_gt _ _) Hu). repeat split; lia.
Qed.

(** there is no batch form of Extend in the Store interface *)
Definition store_lease_op (x : op) : Prop :=
  match x with LeaseBatch _ (KExtend _) _ => False | _ => True end.

(** the monitor's clause for the stored messages; [ok]: a single operation succeeded ([true] for a batch) *)
Lemma c04_msgs_hold c x o r B A k ok pm :
  let e := mkEvent x o r B A in
  NoDup (ids B) -> A = apply_pm pm B ->
  (forall m, In m B -> lchange c (op_now x) k (presented x) m (pm m)) ->
  (forall m lid, In m B -> m_lease m = Some lid -> In lid (presented x) ->
                 is_leased m = true -> op_now x < m_until m -> pm m = lease_effect c (op_now x) k m /\ ok = true) ->
  forallb (c04_msg c e k ok) B && Nat.eqb (length (inserted e)) 0 = true.
Proof.
  intros e ND E Hch Hcomp. set (now := op_now x) in *.
  assert (V : view e pm []).
  { apply view_pm; [exact ND | | exact E]. intros m m' Hm Ep. apply (lchange_imm c now k (presented x)).
    rewrite <- Ep. apply Hch, Hm. }
  rewrite (view_inserted e pm [] V), andb_true_r. apply forallb_forall. intros m Hm.
  unfold c04_msg. cbn [ev_op e]. fold now. rewrite (view_find e pm [] V m Hm). specialize (Hch m Hm).
  destruct (presents x m && is_leased m) eqn:Ep.
  - apply andb_true_iff in Ep. destruct Ep as [Ep Il]. unfold presents in Ep.
    destruct (m_lease m) as [lid|] eqn:L; [|discriminate]. apply memN_In in Ep.
    destruct (now <? m_until m) eqn:Eu.
    + apply Z.ltb_lt in Eu. destruct (Hcomp m lid Hm L Ep Il Eu) as [Epm Eok]. rewrite Epm, Eok, opt_msg_eqb_refl. reflexivity.
    + apply Z.ltb_ge in Eu. destruct Hch as [Q | [[l1 [_ [_ [_ Q]]]] | [l1 [_ [_ [_ [Hu _]]]]]]].
      * rewrite Q, opt_msg_eqb_refl. reflexivity.
      * rewrite Q, opt_msg_eqb_refl. apply orb_true_r.
      * lia.
  - destruct Hch as [Q | [[l1 [L [Hin [Hexp _]]]] | [l1 [L [Hin [Il _]]]]]].
    + rewrite Q. apply opt_msg_eqb_refl.
    + exfalso. unfold presents in Ep. rewrite L, (proj2 (memN_In _ _) Hin) in Ep. unfold expired in Hexp.
      destruct (is_leased m); discriminate.
    + exfalso. unfold presents in Ep. rewrite L, (proj2 (memN_In _ _) Hin), Il in Ep. discriminate.
Qed.

Lemma c04_lease_op fl c now k l o s s' r :
  Inv s -> step_lease fl c now k l s = (s', r) -> c04_event c (mkEvent (LeaseOp now k l) o r (msgs s) (msgs s')) = true.
Proof.
  intros I H. unfold step_lease in H. unfold c04_event. cbn [ev_op ev_res ev_before ev_after op_now].
  destruct (is_noop_extend k) eqn:Hn.
  { inversion H; subst s' r. rewrite Nat.eqb_refl, andb_true_r.
    exact (view_expected _ _ _ (view_same (mkEvent (LeaseOp now k l) o RUnit (msgs s) (msgs s)) (inv_nodup _ _ I) eq_refl)). }
  rewrite <- andb_assoc. apply andb_true_iff.
  destruct l as [x p| |].
  2, 3: (* no lease id presented: refused, nothing changes *)
    inversion H; subst s' r; split; [reflexivity|]; apply c04_msgs_hold with (pm := fun m => Some m);
    [apply I | symmetry; apply apply_pm_id | left; reflexivity | intros m lid _ _ []].
  rewrite (lease_one_eq c now k x (msgs s) (issued s) I) in H.
  set (out := match find_lease x (msgs s) with
              | Some m => if m_until m <=? now then LConflict true else LOk
              | None => LConflict false end) in H.
  assert (Hr : msgs s' = apply_pm (pm_settle c now k [x]) (msgs s)
               /\ res_ok r = match out with LOk => true | LConflict _ => false end).
  { destruct out as [|[|]]; inversion H; subst; split; reflexivity. }
  destruct Hr as [Em Er]. rewrite Er. split.
  - unfold out. cbn [lref_id]. rewrite (current_find_lease now x (msgs s) (issued s) I).
    destruct (find_lease x (msgs s)) as [m|]; [destruct (m_until m <=? now)|]; reflexivity.
  - apply c04_msgs_hold with (pm := pm_settle c now k [x]); [apply I | exact Em | intros m _; apply settle_lchange |].
    intros m lid Hm L [Hin | []] Il Hu. subst lid. split; [apply (settle_live c now k [x] m x L (or_introl eq_refl) Il Hu)|].
    unfold out. cbn [op_now] in Hu. apply Z.leb_gt in Hu. rewrite (find_lease_holder x (msgs s) (issued s) m I Hm L), Hu. reflexivity.
Qed.

Lemma c04_batch c now k ls o s s' r :
  batch_kind_ok k = true -> Inv s -> step_lease_batch c now k ls s = (s', r) ->
  c04_event c (mkEvent (LeaseBatch now k ls) o r (msgs s) (msgs s')) = true.
Proof.
  intros Hk I H.
  destruct (lease_batch_fenced c now k ls s s' r Hk I H) as [pm [E [Hch Hcomp]]].
  set (k' := match k with KNack d => KNack (Z.max d 0) | _ => k end) in *.
  assert (Hk' : batch_kind_ok k' = true) by (destruct k; exact Hk).
  pose proof (lease_batch_counts c now k' ls (msgs s) (issued s) Hk' I) as Hcnt.
  unfold step_lease_batch in H. fold k' in H.
  destruct (lease_batch c now k' ls (msgs s)) as [[ms' n] cs]. inversion H; subst s' r. cbn [msgs set_msgs] in E.
  destruct Hcnt as [Hn [Hlen Htrue]]. rewrite <- (presented_batch now k ls) in Hn, Htrue, Hch, Hcomp.
  pose proof (c04_msgs_hold c (LeaseBatch now k ls) o (RBatch n cs) (msgs s) ms' k' true pm (inv_nodup _ _ I) E Hch
                (fun m lid Hm L Hin Il Hu => conj (Hcomp m lid Hm L Hin Il Hu) eq_refl)) as Hmsgs.
  unfold c04_event. cbn [ev_op ev_res ev_before ev_after op_now lease_op_kind msgs set_msgs] in *. fold k'. rewrite Hmsgs. cbn [andb].
  rewrite !andb_true_iff. repeat split; apply Z.eqb_eq; [exact Hn | exact Hlen | f_equal; exact Htrue].
Qed.
