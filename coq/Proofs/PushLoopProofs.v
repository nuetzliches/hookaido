(** The micro-batch of the push dispatcher (Model/PushLoop.v) over the queue model.  Whatever the batching
    and the stop index, the calls [run_items] issues carry exactly one settlement per leased item
    ([run_items_carries]); run on the queue model while the leases they name are live, calls settle every
    named message by [lease_effect] of its own kind and leave the others as they were ([run_calls_effect]). *)
From Coq Require Import List ZArith NArith Bool Lia Permutation.
From HK Require Import Model.Queue Model.Dispatcher Model.PushLoop Proofs.QueueBase Proofs.QueueInv Proofs.QueueInvStep.
Import ListNotations.
Open Scope Z_scope.

Definition call_kind (x : scall) : lease_kind := match x with SOne k _ | SBatch k _ => k end.

(** the invariant of the loop of [run_items], between the calls issued and the items handled so far: every
    action is in exactly one call, and the kind of every call - also of a batch call that names no lease -
    is the kind of one of the actions *)
Definition carries (cs : list scall) (acts : list act) : Prop :=
  Permutation (calls_acts cs) acts /\ incl (map call_kind cs) (map fst acts).

Lemma calls_acts_app a b : calls_acts (a ++ b) = calls_acts a ++ calls_acts b.
Proof. apply flat_map_app. Qed.

Lemma carries_app c1 c2 a1 a2 : carries c1 a1 -> carries c2 a2 -> carries (c1 ++ c2) (a1 ++ a2).
Proof.
  intros [P1 K1] [P2 K2]. split.
  - rewrite calls_acts_app. apply Permutation_app; assumption.
  - rewrite !map_app. apply incl_app_app; assumption.
Qed.

Lemma carries_cons k l cs acts : carries cs acts -> carries (SOne k l :: cs) ((k, l) :: acts).
Proof. apply (carries_app [SOne k l] cs [(k, l)] acts). split; [apply Permutation_refl | apply incl_refl]. Qed.

Lemma carries_perm cs a a' : Permutation a a' -> carries cs a -> carries cs a'.
Proof.
  intros P [Pc K]. split; [exact (Permutation_trans Pc P)|].
  intros k Hk. apply (Permutation_in _ (Permutation_map fst P)), K, Hk.
Qed.

Lemma kind_eqb_eq a b : kind_eqb a b = true -> a = b.
Proof.
  destruct a, b; simpl; intros H; try discriminate; f_equal.
  - reflexivity.
  - apply Z.eqb_eq, H.
  - apply Z.eqb_eq, H.
  - apply N.eqb_eq, H.
Qed.

Definition batches (gs : list (lease_kind * list N)) : list scall := map (fun g => SBatch (fst g) (snd g)) gs.

Lemma batches_kinds gs : map call_kind (batches gs) = map fst gs.
Proof. apply map_map. Qed.

Lemma add_group_acts k l gs : Permutation (calls_acts (batches (add_group k l gs))) ((k, l) :: calls_acts (batches gs)).
Proof.
  unfold calls_acts, batches. induction gs as [|[k' ls] tl IH]; cbn [add_group].
  - apply Permutation_refl.
  - destruct (kind_eqb k k') eqn:E; cbn [map flat_map call_acts fst snd].
    + apply kind_eqb_eq in E. subst k'. rewrite map_app, <- app_assoc.
      apply Permutation_sym, Permutation_middle.
    + eapply Permutation_trans; [apply Permutation_app_head, IH|].
      apply Permutation_sym, Permutation_middle.
Qed.

Lemma add_group_kinds k l gs : incl (map fst (add_group k l gs)) (k :: map fst gs).
Proof.
  induction gs as [|[k' ls] tl IH]; cbn [add_group]; [apply incl_refl|].
  destruct (kind_eqb k k'); cbn [map fst]; [apply incl_tl, incl_refl|].
  intros x [Hx | Hx]; [right; left; exact Hx|].
  destruct (IH x Hx) as [Hk | Htl]; [left; exact Hk | right; right; exact Htl].
Qed.

Lemma groups_carries acts : carries (batches (groups acts)) acts.
Proof.
  assert (G : forall gs done, carries (batches gs) done ->
    carries (batches (fold_left (fun gs a => add_group (fst a) (snd a) gs) acts gs)) (done ++ acts)).
  { induction acts as [|[k l] tl IH]; intros gs done [P K]; cbn [fold_left fst snd].
    - rewrite app_nil_r. split; assumption.
    - change ((k, l) :: tl) with ([(k, l)] ++ tl). rewrite app_assoc. apply IH. split.
      + eapply Permutation_trans; [apply add_group_acts|].
        eapply Permutation_trans; [apply perm_skip, P | apply Permutation_cons_append].
      + rewrite batches_kinds in *. rewrite map_app.
        intros x Hx. apply add_group_kinds in Hx. apply in_or_app.
        destruct Hx as [Hx | Hx]; [right; left; exact Hx | left; apply K, Hx]. }
  apply (G [] []). split; [apply Permutation_refl | apply incl_refl].
Qed.

Lemma class_split (gs : list (lease_kind * list N)) :
  Permutation (filter (in_class 0) gs ++ filter (in_class 1) gs ++ filter (in_class_ge 2) gs) gs.
Proof.
  induction gs as [|[k ls] tl IH]; [apply Permutation_refl|].
  (* the head joins the one filter that takes its class *)
  destruct k; cbn.
  - apply perm_skip, IH.
  - apply Permutation_sym, Permutation_cons_app, Permutation_sym, IH.
  - rewrite app_assoc in *. apply Permutation_sym, Permutation_cons_app, Permutation_sym, IH.
  - rewrite app_assoc in *. apply Permutation_sym, Permutation_cons_app, Permutation_sym, IH.
Qed.

Lemma calls_acts_singles acts : calls_acts (map (fun a => SOne (fst a) (snd a)) acts) = acts.
Proof.
  unfold calls_acts. induction acts as [|[k l] tl IH]; [reflexivity|].
  cbn [map flat_map call_acts fst snd app]. rewrite IH. reflexivity.
Qed.

Lemma flush_carries bs acts : carries (flush bs acts) acts.
Proof.
  unfold flush. destruct bs.
  - (* the groups, sorted by class: a permutation of [batches (groups acts)] *)
    destruct (groups_carries acts) as [P K].
    pose proof (Permutation_map (fun g => SBatch (fst g) (snd g)) (class_split (groups acts))) as S.
    split.
    + exact (Permutation_trans (Permutation_flat_map call_acts S) P).
    + intros k Hk. apply K, (Permutation_in _ (Permutation_map call_kind S)), Hk.
  - split; [rewrite calls_acts_singles; apply Permutation_refl|].
    rewrite map_map. apply incl_refl.
Qed.

Lemma handback_carries its : carries (map (fun i => SOne (KNack 0) (it_lease i)) its) (expected O its).
Proof.
  induction its as [|it tl IH]; [split; [apply Permutation_refl | apply incl_refl]|].
  apply carries_cons, IH.
Qed.

Theorem run_items_carries ub bs mb stop its : forall pending,
  carries (run_items ub bs mb stop its pending) (pending ++ expected stop its).
Proof.
  revert stop. induction its as [|it tl IH]; intros stop pending.
  - cbn [run_items expected]. rewrite app_nil_r. apply flush_carries.
  - destruct stop as [|stop']; cbn [run_items expected].
    + apply carries_app; [apply flush_carries | apply (handback_carries (it :: tl))].
    + destruct (it_target it) as [rc|]; cbn [fst snd].
      * destruct (negb ub).
        -- eapply carries_perm; [apply Permutation_middle|]. apply carries_cons, IH.
        -- (* the action joins the pending ones, which are flushed when the mutation batch is full *)
           change (?a :: expected stop' tl) with ([a] ++ expected stop' tl). rewrite app_assoc.
           destruct (Nat.leb mb (length (pending ++ [(settle_kind rc it, it_lease it)]))).
           ++ apply carries_app; [apply flush_carries | apply (IH stop' [])].
           ++ apply IH.
      * eapply carries_perm; [apply Permutation_middle|]. apply carries_cons, IH.
Qed.

Lemma expected_leases stop its : map snd (expected stop its) = map it_lease its.
Proof.
  revert stop. induction its as [|it tl IH]; intros stop; [destruct stop; reflexivity|].
  destruct stop as [|s']; cbn [expected map snd]; rewrite IH; reflexivity.
Qed.

Corollary run_items_leases ub bs mb stop its :
  Permutation (map snd (calls_acts (run_items ub bs mb stop its []))) (map it_lease its).
Proof.
  rewrite <- (expected_leases stop its). apply Permutation_map.
  apply (run_items_carries ub bs mb stop its []).
Qed.

(** the dispatcher never asks for an Extend *)
Lemma settle_kind_class rc it : kclass (settle_kind rc it) <> 3%nat.
Proof. unfold settle_kind. destruct (classify _ _ _); simpl; discriminate. Qed.

Lemma expected_class stop its k l : In (k, l) (expected stop its) -> kclass k <> 3%nat.
Proof.
  revert stop. induction its as [|it tl IH]; intros stop H; [destruct stop; destruct H|].
  destruct stop as [|s']; cbn [expected] in H; destruct H as [H | H].
  - inversion H; subst. simpl. discriminate.
  - apply (IH _ H).
  - inversion H; subst. destruct (it_target it); [apply settle_kind_class | simpl; discriminate].
  - apply (IH _ H).
Qed.

(** the lease mutations (time, (kind, lease)) that a list of timed calls amounts to *)
Definition tact := (Z * act)%type.
Definition lease_of_tact (a : tact) : N := snd (snd a).

Definition timed (cs : list (Z * scall)) : list tact :=
  flat_map (fun tc => map (pair (fst tc)) (call_acts (snd tc))) cs.

Lemma timed_acts cs : map snd (timed cs) = calls_acts (map snd cs).
Proof.
  unfold timed, calls_acts. induction cs as [|[t x] tl IH]; [reflexivity|].
  cbn [flat_map map fst snd]. rewrite map_app, IH, map_map, map_id. reflexivity.
Qed.

Lemma in_timed cs t a : In (t, a) (timed cs) -> exists x, In (t, x) cs /\ In a (call_acts x).
Proof.
  intros H. apply in_flat_map in H. destruct H as [[t0 x] [Hx Ha]].
  apply in_map_iff in Ha. destruct Ha as [b [E Hb]]. injection E as -> ->. exists x. split; assumption.
Qed.

Lemma call_acts_kind x k l : In (k, l) (call_acts x) -> k = call_kind x.
Proof.
  destruct x as [k0 l0 | k0 ls]; cbn [call_acts call_kind]; intros H.
  - destruct H as [H | []]. injection H as -> _. reflexivity.
  - apply in_map_iff in H. destruct H as [l1 [H _]]. injection H as -> _. reflexivity.
Qed.

(** the mutations in sequence; [None] as soon as one is refused *)
Fixpoint settle_seq (c : cfg) (acts : list tact) (ms : list msg) : option (list msg) :=
  match acts with
  | [] => Some ms
  | (t, (k, x)) :: tl =>
      match lease_one c t k x ms with
      | (ms1, LOk) => settle_seq c tl ms1
      | (_, LConflict _) => None
      end
  end.

Lemma settle_seq_app c a b ms :
  settle_seq c (a ++ b) ms = match settle_seq c a ms with Some ms1 => settle_seq c b ms1 | None => None end.
Proof.
  revert ms. induction a as [|[t [k x]] tl IH]; intros ms; cbn [app settle_seq]; [reflexivity|].
  destruct (lease_one c t k x ms) as [ms1 [|e]]; [apply IH | reflexivity].
Qed.

(** the sequence in closed form: one [pm_settle] per mutation *)
Fixpoint settle_pm (c : cfg) (acts : list tact) : msg -> option msg :=
  match acts with
  | [] => fun m => Some m
  | (t, (k, x)) :: tl => pm_comp (pm_settle c t k [x]) (settle_pm c tl)
  end.

Definition live_at (ms : list msg) (a : tact) : Prop :=
  exists m, In m ms /\ m_lease m = Some (lease_of_tact a) /\ is_leased m = true /\ fst a < m_until m.

Lemma settle_one_other c t k x m : m_lease m <> Some x -> pm_settle c t k [x] m = Some m.
Proof. intros H. apply settle_other. intros z [<- | []]. exact H. Qed.

Theorem settle_seq_effect c iss acts : forall ms,
  InvL ms iss -> NoDup (map lease_of_tact acts) -> (forall a, In a acts -> live_at ms a) ->
  settle_seq c acts ms = Some (apply_pm (settle_pm c acts) ms) /\ InvL (apply_pm (settle_pm c acts) ms) iss.
Proof.
  induction acts as [|[t [k x]] tl IH]; intros ms I ND Hl; cbn [settle_seq settle_pm].
  - rewrite apply_pm_id. split; [reflexivity | exact I].
  - destruct (Hl _ (or_introl eq_refl)) as [m [Hm [Lm [_ Hu]]]]. cbn [fst] in Hu. apply Z.leb_gt in Hu.
    rewrite (lease_one_eq c t k x ms iss I), (find_lease_holder x ms iss m I Hm Lm), Hu, <- apply_pm_comp.
    cbn [map] in ND. apply NoDup_cons_iff in ND. destruct ND as [Hx ND].
    apply IH; [apply invl_settle; exact I | exact ND |].
    (* the other leases are as live as before: their holders are untouched *)
    intros a Ha. destruct (Hl a (or_intror Ha)) as [y [Hy [Ly Rest]]].
    exists y. split; [|split; [exact Ly | exact Rest]].
    apply apply_pm_In. exists y. split; [exact Hy|]. apply settle_one_other.
    rewrite Ly. intros Eq. apply Hx. injection Eq as Eq. rewrite <- Eq. apply (in_map lease_of_tact _ _ Ha).
Qed.

Lemma settle_pm_imm c acts : imm_pres (settle_pm c acts).
Proof.
  induction acts as [|[t [k x]] tl IH]; cbn [settle_pm]; [apply pm_some_imm|].
  apply pm_comp_imm; [apply pm_settle_imm | exact IH].
Qed.

Lemma settle_pm_other c acts m :
  (forall a, In a acts -> m_lease m <> Some (lease_of_tact a)) -> settle_pm c acts m = Some m.
Proof.
  induction acts as [|[t [k x]] tl IH]; intros H; cbn [settle_pm]; [reflexivity|].
  unfold pm_comp. rewrite settle_one_other; [|exact (H _ (or_introl eq_refl))].
  apply IH. intros a Ha. apply H. right. exact Ha.
Qed.

Lemma not_extend_batch_ok k : kclass k <> 3%nat -> batch_kind_ok k = true.
Proof. destruct k; intros H; try reflexivity. exfalso. apply H. reflexivity. Qed.

(** after its own mutation the holder holds no lease any more, so the later ones do not reach it *)
Lemma settle_pm_holder c acts m t k x :
  NoDup (map lease_of_tact acts) -> (forall a, In a acts -> kclass (fst (snd a)) <> 3%nat) ->
  In (t, (k, x)) acts -> m_lease m = Some x -> is_leased m = true -> t < m_until m ->
  settle_pm c acts m = lease_effect c t k m.
Proof.
  intros ND Hk Hin L Il Hu. induction acts as [|[t' [k' x']] tl IH]; [destruct Hin|].
  cbn [map] in ND. apply NoDup_cons_iff in ND. destruct ND as [Hx ND]. cbn [settle_pm]. unfold pm_comp.
  destruct Hin as [E | Hin].
  - injection E as -> -> ->. rewrite (settle_live c t k [x] m x L (or_introl eq_refl) Il Hu).
    destruct (lease_effect c t k m) as [m1|] eqn:Ef; [|reflexivity].
    apply settle_pm_other. intros a _.
    destruct (lease_effect_clears c t k m m1 (not_extend_batch_ok k (Hk _ (or_introl eq_refl))) Ef) as [-> _]. discriminate.
  - rewrite settle_one_other.
    + apply IH; [exact ND | intros a Ha; apply Hk; right; exact Ha | exact Hin].
    + rewrite L. intros Eq. injection Eq as Eq. apply Hx. rewrite <- Eq. apply (in_map lease_of_tact _ _ Hin).
Qed.

Definition norm_kind (k : lease_kind) : lease_kind :=
  match k with KNack d => KNack (Z.max d 0) | _ => k end.

(** the batch operations clamp a negative nack delay, which [lease_effect] does anyway *)
Lemma lease_one_norm c t k x ms : lease_one c t (norm_kind k) x ms = lease_one c t k x ms.
Proof.
  destruct k; try reflexivity. unfold lease_one.
  destruct (find_lease x ms) as [m|]; [|reflexivity].
  destruct (negb (is_leased m)); [reflexivity|]. destruct (m_until m <=? t); [reflexivity|].
  f_equal. apply apply_pm_ext. intros y _. unfold pm_on_id. destruct (N.eqb (m_id y) (m_id m)); [|reflexivity].
  cbn [norm_kind lease_effect]. rewrite (Z.max_l (Z.max delay 0) 0) by lia. reflexivity.
Qed.

Lemma lease_batch_settled c t k ls : forall ms ms',
  settle_seq c (map (fun l => (t, (k, l))) ls) ms = Some ms' ->
  exists n, lease_batch c t (norm_kind k) (map (fun l => LKnown l false) ls) ms = (ms', n, []).
Proof.
  induction ls as [|l tl IH]; intros ms ms' H; cbn [map settle_seq lease_batch] in *.
  - injection H as <-. exists 0. reflexivity.
  - rewrite lease_one_norm. destruct (lease_one c t k l ms) as [ms1 [|e]]; [|discriminate].
    destruct (IH ms1 ms' H) as [n E]. rewrite E. exists (n + 1). reflexivity.
Qed.

Lemma step_call_settled fl c s t x ms' :
  kclass (call_kind x) <> 3%nat ->
  settle_seq c (map (pair t) (call_acts x)) (msgs s) = Some ms' ->
  exists r, step fl c s (call_op t x) (mkOracle [] [] [] []) = (set_msgs s ms', r) /\ settled_ok r = true.
Proof.
  intros Hk H. destruct x as [k l | k ls]; cbn [call_op step call_acts call_kind] in *.
  - unfold step_lease.
    assert (Hn : is_noop_extend k = false) by (destruct k; try reflexivity; exfalso; apply Hk; reflexivity).
    rewrite Hn. cbn [map settle_seq] in H.
    destruct (lease_one c t k l (msgs s)) as [ms1 [|e]]; [|discriminate].
    injection H as <-. exists RUnit. split; reflexivity.
  - rewrite (not_extend_batch_ok k Hk). unfold step_lease_batch. rewrite map_map in H.
    destruct (lease_batch_settled c t k ls _ _ H) as [n E].
    change (match k with KNack d => KNack (Z.max d 0) | _ => k end) with (norm_kind k).
    rewrite E. exists (RBatch n []). split; reflexivity.
Qed.

Lemma run_calls_settled fl c cs : forall s ms',
  (forall t x, In (t, x) cs -> kclass (call_kind x) <> 3%nat) ->
  settle_seq c (timed cs) (msgs s) = Some ms' ->
  msgs (fst (run_calls fl c s cs)) = ms' /\ issued (fst (run_calls fl c s cs)) = issued s
  /\ forallb settled_ok (snd (run_calls fl c s cs)) = true.
Proof.
  induction cs as [|[t x] tl IH]; intros s ms' Hk H.
  - injection H as <-. repeat split; reflexivity.
  - cbn [timed flat_map fst snd] in H. fold (timed tl) in H. rewrite settle_seq_app in H.
    destruct (settle_seq c (map (pair t) (call_acts x)) (msgs s)) as [ms1|] eqn:E1; [|discriminate].
    destruct (step_call_settled fl c s t x ms1 (Hk t x (or_introl eq_refl)) E1) as [r [Es Hr]].
    destruct (IH (set_msgs s ms1) ms' (fun t0 x0 H0 => Hk t0 x0 (or_intror H0)) H) as [Em [Ei Hrs]].
    cbn [run_calls]. rewrite Es. destruct (run_calls fl c (set_msgs s ms1) tl) as [s2 rs].
    cbn [fst snd forallb] in *. rewrite Hr. repeat split; assumption.
Qed.

(** every lease is live when the call that names it reaches the store *)
Definition calls_live (cs : list (Z * scall)) (ms : list msg) : Prop :=
  forall t x k l, In (t, x) cs -> In (k, l) (call_acts x) ->
    exists m, In m ms /\ m_lease m = Some l /\ is_leased m = true /\ t < m_until m.

Theorem run_calls_effect fl c cs s :
  Inv s ->
  (forall t x, In (t, x) cs -> kclass (call_kind x) <> 3%nat) ->
  NoDup (map snd (calls_acts (map snd cs))) ->
  calls_live cs (msgs s) ->
  let s' := fst (run_calls fl c s cs) in
  forallb settled_ok (snd (run_calls fl c s cs)) = true /\ Inv s'
  /\ (forall m, In m (msgs s) -> (forall l, In l (map snd (calls_acts (map snd cs))) -> m_lease m <> Some l) ->
                find_id (m_id m) (msgs s') = Some m)
  /\ (forall m k l, In m (msgs s) -> In (k, l) (calls_acts (map snd cs)) -> m_lease m = Some l ->
                    exists t, In t (map fst cs) /\ find_id (m_id m) (msgs s') = lease_effect c t k m).
Proof.
  intros I Hk ND Hl. cbv zeta.
  assert (Leases : map lease_of_tact (timed cs) = map snd (calls_acts (map snd cs))).
  { rewrite <- timed_acts, map_map. reflexivity. }
  destruct (settle_seq_effect c (issued s) (timed cs) (msgs s) I) as [E I'].
  { rewrite Leases. exact ND. }
  { intros [t [k l]] Ha. destruct (in_timed cs t _ Ha) as [x [Hx Hkl]]. exact (Hl t x k l Hx Hkl). }
  destruct (run_calls_settled fl c cs s _ Hk E) as [Em [Ei R]].
  split; [exact R|]. split; [unfold Inv; rewrite Em, Ei; exact I'|].
  assert (Hfind : forall m, In m (msgs s) ->
            find_id (m_id m) (msgs (fst (run_calls fl c s cs))) = settle_pm c (timed cs) m).
  { intros m Hm. rewrite Em, find_id_apply_pm; [|apply imm_pres_id_pres, settle_pm_imm | apply (inv_nodup _ _ I)].
    rewrite (find_id_In_NoDup _ _ (inv_nodup _ _ I) Hm). reflexivity. }
  split.
  - intros m Hm Hn. rewrite (Hfind m Hm). apply settle_pm_other.
    intros a Ha. apply Hn. rewrite <- Leases. apply in_map, Ha.
  - intros m k l Hm Hin Lm. rewrite <- timed_acts in Hin. apply in_map_iff in Hin.
    destruct Hin as [[t a] [Ea Hin]]. cbn [snd] in Ea. subst a.
    destruct (in_timed cs t (k, l) Hin) as [x0 [Hx0 Hkl]].
    exists t. split; [apply (in_map fst _ _ Hx0)|].
    (* the holder the call found live is [m] *)
    destruct (Hl t x0 k l Hx0 Hkl) as [m' [Hm' [Lm' [Il Hu]]]].
    assert (m' = m) by (apply (inv_linj _ _ I m' m l); assumption). subst m'.
    rewrite (Hfind m Hm). apply (settle_pm_holder c (timed cs) m t k l); [rewrite Leases; exact ND | | exact Hin | exact Lm | exact Il | exact Hu].
    intros [t' [k' l']] Ha. destruct (in_timed cs t' _ Ha) as [x [Hx Hb]].
    cbn [fst snd]. rewrite (call_acts_kind x k' l' Hb). exact (Hk t' x Hx).
Qed.
