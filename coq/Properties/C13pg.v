(** C13pg - the Postgres store is tied, statement by statement, to the SQLite store.

    internal/queue/postgres.go cannot be executed in the sandbox.  translate/pgtie.go regenerates Gen/PgTie.v
    from internal/queue/sqlite.go and postgres.go on every run: for every function its statement skeleton (SQL
    statements with every placeholder bound to the Go expression passed for it, transaction points, helper calls,
    sentinel errors returned, defaults and clamps with constants resolved, the conditions and loops around them).
    The theorems say that after the dialect normaliser (Model/SqlNorm.v) and exactly the reviewed differences of
    Model/PgAllowedDiffs.v (each of which must occur) the two skeletons of every tied function are equal token
    for token; that no function with a database statement is outside the table; and - for all token lists - that
    the normaliser is idempotent and never changes a column name, a string literal, a comparison operator or a
    guard / ordering keyword, so that equal normal forms have the same guards and the same ORDER BY keys.

    What this is NOT: a proof about Postgres.  It is a checked statement about the text of the two files; the
    engine semantics and the listed differences are reviewed, not proved (docs/notes/C13pg.md). *)
From Coq Require Import String List Bool.
From HK Require Import Gen.PgTie Model.SqlNorm Model.PgAllowedDiffs Proofs.SqlNormProofs Proofs.PgTieProofs.
Import ListNotations.
Local Open Scope string_scope.

(** * the ties: SQLite skeleton, normalised, after the listed differences = Postgres skeleton, normalised

    Each is one evaluation of the boolean [tie_holds].  [vm_compute] is needed: the cast it leaves lets coqc check
    the conversion on its virtual machine; [reflexivity] alone would run it on the lazy machine, at ten times the
    cost. *)

(** queue.Store *)
Theorem C13pg_Enqueue_same_skeleton :
  sqlite_side sqlite_skeletons "Enqueue" sqlite_Enqueue = (pg_side pg_Enqueue, []).
Proof. apply tie_holds_true. vm_compute. reflexivity. Qed.

Theorem C13pg_Dequeue_same_skeleton :
  sqlite_side sqlite_skeletons "Dequeue" sqlite_Dequeue = (pg_side pg_Dequeue, []).
Proof. apply tie_holds_true. vm_compute. reflexivity. Qed.

Theorem C13pg_Ack_same_skeleton :
  sqlite_side sqlite_skeletons "Ack" sqlite_Ack = (pg_side pg_Ack, []).
Proof. apply tie_holds_true. vm_compute. reflexivity. Qed.

Theorem C13pg_Nack_same_skeleton :
  sqlite_side sqlite_skeletons "Nack" sqlite_Nack = (pg_side pg_Nack, []).
Proof. apply tie_holds_true. vm_compute. reflexivity. Qed.

Theorem C13pg_Extend_same_skeleton :
  sqlite_side sqlite_skeletons "Extend" sqlite_Extend = (pg_side pg_Extend, []).
Proof. apply tie_holds_true. vm_compute. reflexivity. Qed.

Theorem C13pg_MarkDead_same_skeleton :
  sqlite_side sqlite_skeletons "MarkDead" sqlite_MarkDead = (pg_side pg_MarkDead, []).
Proof. apply tie_holds_true. vm_compute. reflexivity. Qed.

Theorem C13pg_ListDead_same_skeleton :
  sqlite_side sqlite_skeletons "ListDead" sqlite_ListDead = (pg_side pg_ListDead, []).
Proof. apply tie_holds_true. vm_compute. reflexivity. Qed.

Theorem C13pg_RequeueDead_same_skeleton :
  sqlite_side sqlite_skeletons "RequeueDead" sqlite_RequeueDead = (pg_side pg_RequeueDead, []).
Proof. apply tie_holds_true. vm_compute. reflexivity. Qed.

Theorem C13pg_DeleteDead_same_skeleton :
  sqlite_side sqlite_skeletons "DeleteDead" sqlite_DeleteDead = (pg_side pg_DeleteDead, []).
Proof. apply tie_holds_true. vm_compute. reflexivity. Qed.

Theorem C13pg_ListMessages_same_skeleton :
  sqlite_side sqlite_skeletons "ListMessages" sqlite_ListMessages = (pg_side pg_ListMessages, []).
Proof. apply tie_holds_true. vm_compute. reflexivity. Qed.

Theorem C13pg_LookupMessages_same_skeleton :
  sqlite_side sqlite_skeletons "LookupMessages" sqlite_LookupMessages = (pg_side pg_LookupMessages, []).
Proof. apply tie_holds_true. vm_compute. reflexivity. Qed.

Theorem C13pg_CancelMessages_same_skeleton :
  sqlite_side sqlite_skeletons "CancelMessages" sqlite_CancelMessages = (pg_side pg_CancelMessages, []).
Proof. apply tie_holds_true. vm_compute. reflexivity. Qed.

Theorem C13pg_RequeueMessages_same_skeleton :
  sqlite_side sqlite_skeletons "RequeueMessages" sqlite_RequeueMessages = (pg_side pg_RequeueMessages, []).
Proof. apply tie_holds_true. vm_compute. reflexivity. Qed.

Theorem C13pg_ResumeMessages_same_skeleton :
  sqlite_side sqlite_skeletons "ResumeMessages" sqlite_ResumeMessages = (pg_side pg_ResumeMessages, []).
Proof. apply tie_holds_true. vm_compute. reflexivity. Qed.

Theorem C13pg_CancelMessagesByFilter_same_skeleton :
  sqlite_side sqlite_skeletons "CancelMessagesByFilter" sqlite_CancelMessagesByFilter = (pg_side pg_CancelMessagesByFilter, []).
Proof. apply tie_holds_true. vm_compute. reflexivity. Qed.

Theorem C13pg_RequeueMessagesByFilter_same_skeleton :
  sqlite_side sqlite_skeletons "RequeueMessagesByFilter" sqlite_RequeueMessagesByFilter = (pg_side pg_RequeueMessagesByFilter, []).
Proof. apply tie_holds_true. vm_compute. reflexivity. Qed.

Theorem C13pg_ResumeMessagesByFilter_same_skeleton :
  sqlite_side sqlite_skeletons "ResumeMessagesByFilter" sqlite_ResumeMessagesByFilter = (pg_side pg_ResumeMessagesByFilter, []).
Proof. apply tie_holds_true. vm_compute. reflexivity. Qed.

Theorem C13pg_Stats_same_skeleton :
  sqlite_side sqlite_skeletons "Stats" sqlite_Stats = (pg_side pg_Stats, []).
Proof. apply tie_holds_true. vm_compute. reflexivity. Qed.

Theorem C13pg_RecordAttempt_same_skeleton :
  sqlite_side sqlite_skeletons "RecordAttempt" sqlite_RecordAttempt = (pg_side pg_RecordAttempt, []).
Proof. apply tie_holds_true. vm_compute. reflexivity. Qed.

Theorem C13pg_ListAttempts_same_skeleton :
  sqlite_side sqlite_skeletons "ListAttempts" sqlite_ListAttempts = (pg_side pg_ListAttempts, []).
Proof. apply tie_holds_true. vm_compute. reflexivity. Qed.

(** queue.LeaseBatchStore, queue.BacklogTrendStore *)
Theorem C13pg_AckBatch_same_skeleton :
  sqlite_side sqlite_skeletons "AckBatch" sqlite_AckBatch = (pg_side pg_AckBatch, []).
Proof. apply tie_holds_true. vm_compute. reflexivity. Qed.

Theorem C13pg_NackBatch_same_skeleton :
  sqlite_side sqlite_skeletons "NackBatch" sqlite_NackBatch = (pg_side pg_NackBatch, []).
Proof. apply tie_holds_true. vm_compute. reflexivity. Qed.

Theorem C13pg_MarkDeadBatch_same_skeleton :
  sqlite_side sqlite_skeletons "MarkDeadBatch" sqlite_MarkDeadBatch = (pg_side pg_MarkDeadBatch, []).
Proof. apply tie_holds_true. vm_compute. reflexivity. Qed.

Theorem C13pg_CaptureBacklogTrendSample_same_skeleton :
  sqlite_side sqlite_skeletons "CaptureBacklogTrendSample" sqlite_CaptureBacklogTrendSample = (pg_side pg_CaptureBacklogTrendSample, []).
Proof. apply tie_holds_true. vm_compute. reflexivity. Qed.

Theorem C13pg_ListBacklogTrend_same_skeleton :
  sqlite_side sqlite_skeletons "ListBacklogTrend" sqlite_ListBacklogTrend = (pg_side pg_ListBacklogTrend, []).
Proof. apply tie_holds_true. vm_compute. reflexivity. Qed.

(** helpers *)
Theorem C13pg_dequeueOnce_same_skeleton :
  sqlite_side sqlite_skeletons "dequeueOnce" sqlite_dequeueOnce = (pg_side pg_dequeueOnce, []).
Proof. apply tie_holds_true. vm_compute. reflexivity. Qed.

Theorem C13pg_withLease_same_skeleton :
  sqlite_side sqlite_skeletons "withLease" sqlite_withLeaseMutation = (pg_side pg_withLease, []).
Proof. apply tie_holds_true. vm_compute. reflexivity. Qed.

Theorem C13pg_requeueExpiredLeases_same_skeleton :
  sqlite_side sqlite_skeletons "requeueExpiredLeases" sqlite_requeueExpiredLeases = (pg_side pg_requeueExpiredLeasesTx, []).
Proof. apply tie_holds_true. vm_compute. reflexivity. Qed.

Theorem C13pg_requeueLease_same_skeleton :
  sqlite_side sqlite_skeletons "requeueLease" sqlite_requeueLease = (pg_side pg_requeueLeaseTx, []).
Proof. apply tie_holds_true. vm_compute. reflexivity. Qed.

Theorem C13pg_maybePrune_same_skeleton :
  sqlite_side sqlite_skeletons "maybePrune" sqlite_maybePrune = (pg_side pg_maybePrune, []).
Proof. apply tie_holds_true. vm_compute. reflexivity. Qed.

Theorem C13pg_selectMessageIDsByFilter_same_skeleton :
  sqlite_side sqlite_skeletons "selectMessageIDsByFilter" sqlite_selectMessageIDsByFilter = (pg_side pg_selectMessageIDsByFilter, []).
Proof. apply tie_holds_true. vm_compute. reflexivity. Qed.

Theorem C13pg_dropOldestQueued_same_skeleton :
  sqlite_side sqlite_skeletons "dropOldestQueued" sqlite_dropOldestQueued = (pg_side pg_dropOldestQueued, []).
Proof. apply tie_holds_true. vm_compute. reflexivity. Qed.

Theorem C13pg_activeCount_same_skeleton :
  sqlite_side sqlite_skeletons "activeCount" sqlite_activeDepthCountTx = (pg_side pg_activeCount, []).
Proof. apply tie_holds_true. vm_compute. reflexivity. Qed.

Theorem C13pg_mapInsertError_same_skeleton :
  sqlite_side sqlite_skeletons "mapInsertError" sqlite_mapQueueInsertError = (pg_side pg_mapPostgresInsertError, []).
Proof. apply tie_holds_true. vm_compute. reflexivity. Qed.

(** construction and options *)
Theorem C13pg_NewStore_same_skeleton :
  sqlite_side sqlite_skeletons "NewStore" sqlite_NewSQLiteStore = (pg_side pg_NewPostgresStore, []).
Proof. apply tie_holds_true. vm_compute. reflexivity. Qed.

Theorem C13pg_WithNowFunc_same_skeleton :
  sqlite_side sqlite_skeletons "WithNowFunc" sqlite_WithSQLiteNowFunc = (pg_side pg_WithPostgresNowFunc, []).
Proof. apply tie_holds_true. vm_compute. reflexivity. Qed.

Theorem C13pg_WithPollInterval_same_skeleton :
  sqlite_side sqlite_skeletons "WithPollInterval" sqlite_WithSQLitePollInterval = (pg_side pg_WithPostgresPollInterval, []).
Proof. apply tie_holds_true. vm_compute. reflexivity. Qed.

Theorem C13pg_WithQueueLimits_same_skeleton :
  sqlite_side sqlite_skeletons "WithQueueLimits" sqlite_WithSQLiteQueueLimits = (pg_side pg_WithPostgresQueueLimits, []).
Proof. apply tie_holds_true. vm_compute. reflexivity. Qed.

Theorem C13pg_WithRetention_same_skeleton :
  sqlite_side sqlite_skeletons "WithRetention" sqlite_WithSQLiteRetention = (pg_side pg_WithPostgresRetention, []).
Proof. apply tie_holds_true. vm_compute. reflexivity. Qed.

Theorem C13pg_WithDeliveredRetention_same_skeleton :
  sqlite_side sqlite_skeletons "WithDeliveredRetention" sqlite_WithSQLiteDeliveredRetention = (pg_side pg_WithPostgresDeliveredRetention, []).
Proof. apply tie_holds_true. vm_compute. reflexivity. Qed.

Theorem C13pg_WithDLQRetention_same_skeleton :
  sqlite_side sqlite_skeletons "WithDLQRetention" sqlite_WithSQLiteDLQRetention = (pg_side pg_WithPostgresDLQRetention, []).
Proof. apply tie_holds_true. vm_compute. reflexivity. Qed.


(** * the functions that need no listed difference and no helper read in place: equal normal forms *)

Theorem C13pg_LookupMessages_exact : norm_pg pg_LookupMessages = norm_sqlite sqlite_LookupMessages.
Proof. apply list_eqb_eq. vm_compute. reflexivity. Qed.

Theorem C13pg_CancelMessages_exact : norm_pg pg_CancelMessages = norm_sqlite sqlite_CancelMessages.
Proof. apply list_eqb_eq. vm_compute. reflexivity. Qed.

Theorem C13pg_RequeueMessages_exact : norm_pg pg_RequeueMessages = norm_sqlite sqlite_RequeueMessages.
Proof. apply list_eqb_eq. vm_compute. reflexivity. Qed.

Theorem C13pg_ResumeMessages_exact : norm_pg pg_ResumeMessages = norm_sqlite sqlite_ResumeMessages.
Proof. apply list_eqb_eq. vm_compute. reflexivity. Qed.

Theorem C13pg_CancelMessagesByFilter_exact : norm_pg pg_CancelMessagesByFilter = norm_sqlite sqlite_CancelMessagesByFilter.
Proof. apply list_eqb_eq. vm_compute. reflexivity. Qed.

Theorem C13pg_RequeueMessagesByFilter_exact : norm_pg pg_RequeueMessagesByFilter = norm_sqlite sqlite_RequeueMessagesByFilter.
Proof. apply list_eqb_eq. vm_compute. reflexivity. Qed.

Theorem C13pg_ResumeMessagesByFilter_exact : norm_pg pg_ResumeMessagesByFilter = norm_sqlite sqlite_ResumeMessagesByFilter.
Proof. apply list_eqb_eq. vm_compute. reflexivity. Qed.

Theorem C13pg_requeueExpiredLeases_exact : norm_pg pg_requeueExpiredLeasesTx = norm_sqlite sqlite_requeueExpiredLeases.
Proof. apply list_eqb_eq. vm_compute. reflexivity. Qed.

Theorem C13pg_WithNowFunc_exact : norm_pg pg_WithPostgresNowFunc = norm_sqlite sqlite_WithSQLiteNowFunc.
Proof. apply list_eqb_eq. vm_compute. reflexivity. Qed.

Theorem C13pg_WithPollInterval_exact : norm_pg pg_WithPostgresPollInterval = norm_sqlite sqlite_WithSQLitePollInterval.
Proof. apply list_eqb_eq. vm_compute. reflexivity. Qed.

Theorem C13pg_WithQueueLimits_exact : norm_pg pg_WithPostgresQueueLimits = norm_sqlite sqlite_WithSQLiteQueueLimits.
Proof. apply list_eqb_eq. vm_compute. reflexivity. Qed.

Theorem C13pg_WithRetention_exact : norm_pg pg_WithPostgresRetention = norm_sqlite sqlite_WithSQLiteRetention.
Proof. apply list_eqb_eq. vm_compute. reflexivity. Qed.

Theorem C13pg_WithDeliveredRetention_exact : norm_pg pg_WithPostgresDeliveredRetention = norm_sqlite sqlite_WithSQLiteDeliveredRetention.
Proof. apply list_eqb_eq. vm_compute. reflexivity. Qed.

Theorem C13pg_WithDLQRetention_exact : norm_pg pg_WithPostgresDLQRetention = norm_sqlite sqlite_WithSQLiteDLQRetention.
Proof. apply list_eqb_eq. vm_compute. reflexivity. Qed.


(** * inventory: nothing with a database statement, a transaction or a sentinel error is outside the table *)
Theorem C13pg_sqlite_functions_covered :
  covered (map fst sqlite_skeletons) (map fst sqlite_only) (map (fun t => snd (fst t)) tied) = true.
Proof. vm_compute. reflexivity. Qed.

Theorem C13pg_pg_functions_covered :
  covered (map fst pg_skeletons) (map fst pg_only) (map snd tied) = true.
Proof. vm_compute. reflexivity. Qed.

(** every function named in the table exists (a removed or renamed function is noticed) *)
Theorem C13pg_tied_functions_exist :
  forallb (fun t => match t with (_, a, b) =>
     match assoc a sqlite_skeletons, assoc b pg_skeletons with Some _, Some _ => true | _, _ => false end end) tied = true.
Proof. vm_compute. reflexivity. Qed.

Theorem C13pg_untied_functions_exist :
  forallb (fun p => match assoc (fst p) sqlite_skeletons with Some _ => true | None => false end) sqlite_only
  && forallb (fun p => match assoc (fst p) pg_skeletons with Some _ => true | None => false end) pg_only = true.
Proof. vm_compute. reflexivity. Qed.

(** the exported method sets: Postgres lacks exactly EnqueueBatch (queue.BatchEnqueuer) *)
Theorem C13pg_methods_same : pg_methods = filter (fun m => negb (m =? "EnqueueBatch")) sqlite_methods.
Proof. apply list_eqb_eq. vm_compute. reflexivity. Qed.

(** both files mention the same sentinel errors *)
Theorem C13pg_errors_same : pg_errors_used = sqlite_errors_used.
Proof. apply list_eqb_eq. vm_compute. reflexivity. Qed.

(** the same tables with the same columns; SQLite has the trigger-maintained queue_counters in addition *)
Theorem C13pg_schema_columns :
  pg_columns = filter (fun c => negb (String.prefix "queue_counters." c)) sqlite_columns.
Proof. apply list_eqb_eq. vm_compute. reflexivity. Qed.

(** every column name is a token the normaliser never changes *)
Theorem C13pg_columns_are_kept :
  forallb (fun c => keep (after_dot c)) (sqlite_columns ++ pg_columns) = true.
Proof. vm_compute. reflexivity. Qed.

(** the limits that postgres.go names are the literals sqlite.go writes inline (the clamps themselves are
    compared inside the ties of Dequeue, ListDead, ListMessages, ListAttempts, ListBacklogTrend,
    selectMessageIDsByFilter, with the constants resolved) *)
Theorem C13pg_limits :
  pg_consts = ["postgresBacklogMaxLimit=20000"; "postgresMaxDequeueBatch=100"; "postgresMaxListLimit=1000"].
Proof. apply list_eqb_eq. vm_compute. reflexivity. Qed.

(** the three SQLite transaction helpers that the normaliser reads as begin / commit / rollback execute
    exactly these statements *)
Theorem C13pg_sqlite_tx_helpers_pinned :
  stmts_of sqlite_beginImmediateWithRetry = [["BEGIN"; "IMMEDIATE"; ";"]]
  /\ stmts_of sqlite_commitTx = [["COMMIT"; ";"]]
  /\ stmts_of sqlite_rollbackTx = [["ROLLBACK"; ";"]].
Proof. repeat split; vm_compute; reflexivity. Qed.

(** the two Postgres wrappers that are read through at their call sites do nothing but call their closure *)
Theorem C13pg_pg_wrappers_pinned :
  pg_runStoreOperation = ["#callparam:fn"] /\ pg_runPostgresStoreOperationResult = ["#callparam:fn"].
Proof. split; vm_compute; reflexivity. Qed.

(** the table of listed differences is well formed: no empty SQLite fragment (a fragment is anchored), every
    entry names only ties of the table *)
Theorem C13pg_diffs_well_formed :
  forallb (fun d => negb (Nat.eqb (length (d_sqlite d)) 0)
                    && forallb (fun n => mem n (map (fun t => fst (fst t)) tied)) (d_in d)
                    && negb (Nat.eqb (length (d_in d)) 0)) allowed_diffs = true.
Proof. vm_compute. reflexivity. Qed.

(** the entries that record an OBSERVABLE difference between the two stores (reported, not excused) *)
Theorem C13pg_divergent_entries :
  map d_id (filter (fun d => match d_kind d with Divergent => true | Structural => false end) allowed_diffs) =
  ["enqueue-normalisation"; "enqueue-depth-limit"; "enqueue-insert-shape"; "mark-dead-reason-1"; "mark-dead-reason-2";
   "list-without-prune"; "list-include-2"; "stats-bucket-ages-1"; "stats-bucket-ages-2"; "dequeue-select-and-lease";
   "prune-queued-boundary"; "prune-delivered-column";
   "prune-dead-boundary"].
Proof. apply list_eqb_eq. vm_compute. reflexivity. Qed.

Theorem C13pg_any_in_idempotent : forall l, any_in (any_in l) = any_in l.
Proof.
  induction l as [|x y z t R IH|x l R IH] using any_in_ind.
  - reflexivity.
  - rewrite (any_in_redex _ _ _ _ R), any_in_step, IH; [reflexivity|].
    intros ? ? ? _. apply not_redex. left. discriminate.
  - rewrite (any_in_step _ _ R), any_in_step, IH; [reflexivity|].
    now apply any_in_no_new_redex.
Qed.

Theorem C13pg_pass_a_idempotent : forall cm d l, pass_a cm d (pass_a cm d l) = pass_a cm d l.
Proof. intros. apply pass_a_stable_id, pass_a_all_stable. Qed.

(** pass B only writes ["IN"], which pass A leaves alone like every token of its own output *)
Theorem C13pg_norm_idempotent : forall cm d l, norm cm d (norm cm d l) = norm cm d l.
Proof.
  intros cm d l. unfold norm.
  rewrite (pass_a_stable_id cm d (any_in (pass_a cm d l))); [apply C13pg_any_in_idempotent|].
  apply Forall_forall. intros u H. apply any_in_tokens in H. destruct H as [->|H].
  - now apply fixed_word_stable.
  - pose proof (pass_a_all_stable cm d l) as F. rewrite Forall_forall in F. now apply F.
Qed.

(** a column or table name, a string literal, a comparison operator (other than [=]) or a keyword that
    structures guards and ordering is never changed, whatever the dialect and the call map *)
Theorem C13pg_norm_never_changes_guard_tokens : forall cm d t, keep t = true -> norm_tok cm d t = [t].
Proof.
  intros cm d t H. unfold keep in H. rewrite !orb_true_iff in H. destruct H as [[[H|H]|H]|H].
  - now apply plain_ident_stable.
  - now apply inert_stable, quoted_inert.
  - assert (F : forallb fixed_word cmp_ops = true) by reflexivity.
    rewrite forallb_forall in F. now apply fixed_word_stable, F, mem_In.
  - assert (F : forallb fixed_word guard_keywords = true) by (vm_compute; reflexivity).
    rewrite forallb_forall in F. now apply fixed_word_stable, F, mem_In.
Qed.

(** the guards and ordering keys of a normal form are those of the raw skeleton (after placeholder binding
    and keyword case-folding, nothing else) *)
Theorem C13pg_norm_keeps_guards : forall cm d l,
  filter keep (norm cm d l) = filter keep (map kw_upper (resolve d l)).
Proof. intros cm d l. unfold norm. rewrite any_in_keep. apply pass_a_guards. Qed.

(** two skeletons with the same normal form have the same columns, literals, comparison operators and
    guard / ordering keywords, in the same order *)
Theorem C13pg_same_normal_form_same_guards : forall cm1 cm2 a b,
  norm cm1 Pg a = norm cm2 Sqlite b ->
  filter keep (map kw_upper (resolve Pg a)) = filter keep (map kw_upper (resolve Sqlite b)).
Proof.
  intros cm1 cm2 a b H.
  rewrite <- (C13pg_norm_keeps_guards cm1 Pg a), <- (C13pg_norm_keeps_guards cm2 Sqlite b). now rewrite H.
Qed.

(** * non-vacuity *)

(** what the normaliser does *)
Example norm_pg_example :
  norm_pg ["#stmt:exec"; "UPDATE"; "queue_items"; "SET"; "next_run_at"; "="; "$2{s.now().UTC()}"; "WHERE"; "state"; "="; "ANY"; "(";
           "$3{['queued','leased']}"; ")"; "AND"; "id"; "="; "ANY"; "("; "$4{ids}"; ")"; "#endstmt"; "#call:requeueLeaseTx"]
  = ["#stmt:exec"; "UPDATE"; "queue_items"; "SET"; "next_run_at"; "="; "@{now}"; "WHERE"; "state"; "IN"; "("; "'queued'"; ",";
     "'leased'"; ")"; "AND"; "id"; "IN"; "("; "@{ids}"; ")"; "#endstmt"; "#do:requeueLease"].
Proof. vm_compute. reflexivity. Qed.

Example norm_sqlite_example :
  norm_sqlite ["#call:beginImmediateWithRetry"; "#stmt:exec"; "update"; "queue_items"; "SET"; "next_run_at"; "="; "?{s.now().UnixNano()}";
               "WHERE"; "state"; "IN"; "("; "?{'queued'}"; ","; "?{'leased'}"; ")"; "AND"; "id"; "IN"; "("; "?*{ids}"; ")"; ";"; "#endstmt";
               "#call:requeueLease"; "#call:commitTx"]
  = ["#begin"; "#stmt:exec"; "UPDATE"; "queue_items"; "SET"; "next_run_at"; "="; "@{now}"; "WHERE"; "state"; "IN"; "("; "'queued'"; ",";
     "'leased'"; ")"; "AND"; "id"; "IN"; "("; "@{ids}"; ")"; "#endstmt"; "#do:requeueLease"; "#commit"].
Proof. vm_compute. reflexivity. Qed.

(** the normaliser does not identify different guards, orders or errors *)
Example guard_operator_matters :
  norm_pg ["lease_until"; "<="; "$2{now}"] <> norm_pg ["lease_until"; "<"; "$2{now}"].
Proof. vm_compute. discriminate. Qed.

Example state_literal_matters :
  norm_pg ["state"; "="; "$1{'dead'}"] <> norm_sqlite ["state"; "="; "?{'queued'}"].
Proof. vm_compute. discriminate. Qed.

(** the ties are sensitive: each of these edits of one generated skeleton breaks its tie (where the Postgres
    skeleton is edited, the SQLite side is known from the tie of the unedited pair) *)
Definition edit (from to l : list string) : list string * nat := replace_all (S (length l)) from to l.

Example DeleteDead_without_state_guard_breaks :
  let (pg', n) := edit ["AND"; "state"; "="; "$2{'dead'}"] [] pg_DeleteDead in
  n = 1 /\ tie_holds sqlite_skeletons "DeleteDead" sqlite_DeleteDead pg' = false.
Proof. unfold tie_holds. rewrite C13pg_DeleteDead_same_skeleton. vm_compute. split; reflexivity. Qed.

Example dequeue_other_order_breaks :
  let (pg', n) := edit ["ORDER"; "BY"; "next_run_at"; "ASC"; ","; "received_at"; "ASC"; ","; "id"; "ASC"] ["ORDER"; "BY"; "id"; "ASC"] pg_dequeueOnce in
  n = 1 /\ tie_holds sqlite_skeletons "dequeueOnce" sqlite_dequeueOnce pg' = false.
Proof. unfold tie_holds. rewrite C13pg_dequeueOnce_same_skeleton. vm_compute. split; reflexivity. Qed.

Example expired_answered_not_found_breaks :
  let (pg', n) := edit ["#ret:ErrLeaseExpired"] ["#ret:ErrLeaseNotFound"] pg_withLease in
  n = 1 /\ tie_holds sqlite_skeletons "withLease" sqlite_withLeaseMutation pg' = false.
Proof. unfold tie_holds. rewrite C13pg_withLease_same_skeleton. vm_compute. split; reflexivity. Qed.

Example sqlite_edit_breaks_too :
  let (sq', n) := edit ["?{'dead'}"] ["?{'canceled'}"] sqlite_RequeueDead in
  n = 1 /\ tie_holds sqlite_skeletons "RequeueDead" sq' pg_RequeueDead = false.
Proof. vm_compute. split; reflexivity. Qed.

(** a listed difference that does not occur is an error, not a licence *)
Example unused_difference_is_reported :
  snd (sqlite_side sqlite_skeletons "LookupMessages" sqlite_LookupMessages) = []
  /\ snd (apply_diffs [mkDiff "x" ["LookupMessages"] ["no"; "such"; "fragment"] [] Structural ""] "LookupMessages"
            (norm_sqlite sqlite_LookupMessages)) = ["x"].
Proof. vm_compute. split; reflexivity. Qed.


Print Assumptions C13pg_Enqueue_same_skeleton.
Print Assumptions C13pg_Dequeue_same_skeleton.
Print Assumptions C13pg_Ack_same_skeleton.
Print Assumptions C13pg_Nack_same_skeleton.
Print Assumptions C13pg_Extend_same_skeleton.
Print Assumptions C13pg_MarkDead_same_skeleton.
Print Assumptions C13pg_ListDead_same_skeleton.
Print Assumptions C13pg_RequeueDead_same_skeleton.
Print Assumptions C13pg_DeleteDead_same_skeleton.
Print Assumptions C13pg_ListMessages_same_skeleton.
Print Assumptions C13pg_LookupMessages_same_skeleton.
Print Assumptions C13pg_CancelMessages_same_skeleton.
Print Assumptions C13pg_RequeueMessages_same_skeleton.
Print Assumptions C13pg_ResumeMessages_same_skeleton.
Print Assumptions C13pg_CancelMessagesByFilter_same_skeleton.
Print Assumptions C13pg_RequeueMessagesByFilter_same_skeleton.
Print Assumptions C13pg_ResumeMessagesByFilter_same_skeleton.
Print Assumptions C13pg_Stats_same_skeleton.
Print Assumptions C13pg_RecordAttempt_same_skeleton.
Print Assumptions C13pg_ListAttempts_same_skeleton.
Print Assumptions C13pg_AckBatch_same_skeleton.
Print Assumptions C13pg_NackBatch_same_skeleton.
Print Assumptions C13pg_MarkDeadBatch_same_skeleton.
Print Assumptions C13pg_CaptureBacklogTrendSample_same_skeleton.
Print Assumptions C13pg_ListBacklogTrend_same_skeleton.
Print Assumptions C13pg_dequeueOnce_same_skeleton.
Print Assumptions C13pg_withLease_same_skeleton.
Print Assumptions C13pg_requeueExpiredLeases_same_skeleton.
Print Assumptions C13pg_requeueLease_same_skeleton.
Print Assumptions C13pg_maybePrune_same_skeleton.
Print Assumptions C13pg_selectMessageIDsByFilter_same_skeleton.
Print Assumptions C13pg_dropOldestQueued_same_skeleton.
Print Assumptions C13pg_activeCount_same_skeleton.
Print Assumptions C13pg_mapInsertError_same_skeleton.
Print Assumptions C13pg_NewStore_same_skeleton.
Print Assumptions C13pg_WithNowFunc_same_skeleton.
Print Assumptions C13pg_WithPollInterval_same_skeleton.
Print Assumptions C13pg_WithQueueLimits_same_skeleton.
Print Assumptions C13pg_WithRetention_same_skeleton.
Print Assumptions C13pg_WithDeliveredRetention_same_skeleton.
Print Assumptions C13pg_WithDLQRetention_same_skeleton.
Print Assumptions C13pg_LookupMessages_exact.
Print Assumptions C13pg_CancelMessages_exact.
Print Assumptions C13pg_RequeueMessages_exact.
Print Assumptions C13pg_ResumeMessages_exact.
Print Assumptions C13pg_CancelMessagesByFilter_exact.
Print Assumptions C13pg_RequeueMessagesByFilter_exact.
Print Assumptions C13pg_ResumeMessagesByFilter_exact.
Print Assumptions C13pg_requeueExpiredLeases_exact.
Print Assumptions C13pg_WithNowFunc_exact.
Print Assumptions C13pg_WithPollInterval_exact.
Print Assumptions C13pg_WithQueueLimits_exact.
Print Assumptions C13pg_WithRetention_exact.
Print Assumptions C13pg_WithDeliveredRetention_exact.
Print Assumptions C13pg_WithDLQRetention_exact.
Print Assumptions C13pg_sqlite_functions_covered.
Print Assumptions C13pg_pg_functions_covered.
Print Assumptions C13pg_tied_functions_exist.
Print Assumptions C13pg_untied_functions_exist.
Print Assumptions C13pg_methods_same.
Print Assumptions C13pg_errors_same.
Print Assumptions C13pg_schema_columns.
Print Assumptions C13pg_columns_are_kept.
Print Assumptions C13pg_limits.
Print Assumptions C13pg_sqlite_tx_helpers_pinned.
Print Assumptions C13pg_pg_wrappers_pinned.
Print Assumptions C13pg_diffs_well_formed.
Print Assumptions C13pg_divergent_entries.
Print Assumptions C13pg_norm_idempotent.
Print Assumptions C13pg_pass_a_idempotent.
Print Assumptions C13pg_any_in_idempotent.
Print Assumptions C13pg_norm_never_changes_guard_tokens.
Print Assumptions C13pg_norm_keeps_guards.
Print Assumptions C13pg_same_normal_form_same_guards.
