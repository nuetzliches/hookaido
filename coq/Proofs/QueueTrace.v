(** History-level statements: every event of every model trace satisfies the step specification,
    and the consequences used by the property files. *)
From Coq Require Import List ZArith NArith Bool.
From HK Require Import Model.Queue Model.QueueMon Proofs.QueueBase Proofs.QueueInv Proofs.QueueInvStep
  Proofs.QueueStep.
Import ListNotations.
Open Scope Z_scope.

Definition state_ok (l : list msg) : Prop :=
  NoDup (ids l) /\ (forall m, In m l -> coherent m = true) /\ lease_inj l.

Definition event_sound (c : cfg) (e : event) : Prop :=
  state_ok (ev_before e) /\ state_ok (ev_after e)
  /\ step_spec c (ev_op e) (ev_orc e) (ev_res e) (ev_before e) (ev_after e).

Lemma inv_state_ok s : Inv s -> state_ok (msgs s).
Proof. intros [A B Cc _]. repeat split; assumption. Qed.

Lemma run_sound fl c s xs : Inv s -> Forall (event_sound c) (fst (run fl c s xs)).
Proof.
  revert s. induction xs as [|[x o] tl IH]; simpl; intros s I; [constructor|].
  pose proof (step_inv fl c s x o I) as I1.
  pose proof (step_sound fl c s x o) as S.
  destruct (step fl c s x o) as [s' r] eqn:E. simpl in I1. specialize (S s' r I eq_refl).
  specialize (IH s' I1). destruct (run fl c s' tl) as [evs sf]. simpl in *.
  constructor; [|exact IH]. split; [apply inv_state_ok; exact I|]. split; [apply inv_state_ok; exact I1 | exact S].
Qed.

Theorem trace_sound fl c xs : Forall (event_sound c) (model_trace fl c xs).
Proof. apply run_sound. apply inv_init. Qed.

Lemma run_chained fl c s xs :
  (forall e, hd_error (fst (run fl c s xs)) = Some e -> ev_before e = msgs s)
  /\ (forall i e1 e2, nth_error (fst (run fl c s xs)) i = Some e1 -> nth_error (fst (run fl c s xs)) (S i) = Some e2 ->
                      ev_after e1 = ev_before e2).
Proof.
  revert s. induction xs as [|[x o] tl IH]; intros s.
  - simpl. split; [intros e H; discriminate | intros i e1 e2 H; destruct i; discriminate].
  - specialize (IH (fst (step fl c s x o))). cbn [run].
    destruct (step fl c s x o) as [s' r]. cbn [fst] in IH.
    destruct (run fl c s' tl) as [evs sf]. cbn [fst] in *. destruct IH as [IH1 IH2]. split.
    + intros e H. simpl in H. inversion H; subst. reflexivity.
    + intros i e1 e2 H1 H2. destruct i as [|i]; simpl in H1, H2.
      * inversion H1; subst e1. simpl. symmetry. apply IH1. destruct evs; [discriminate | exact H2].
      * apply (IH2 i); assumption.
Qed.

Lemma spec_error_frame c x o e l l' :
  step_spec c x o (RErr e) l l' ->
  exists pm, l' = apply_pm pm l /\
    forall m, In m l ->
      pm m = Some m
      \/ (pm m = Some (release (op_now x) m) /\ expired (op_now x) m = true /\ releases x = true)
      \/ (pm m = None /\ prunes x = true /\ prune_reason c (op_now x) m).
Proof.
  intros [pm [news [E [P N]]]]. exists pm. split.
  - destruct N as [N | [N _]]; [subst news; rewrite app_nil_r in E; exact E | apply enq_ok_res_ok in N; discriminate].
  - intros m Hm. specialize (P m Hm). destruct (pm m) as [m'|].
    + destruct (change_on_error_releases c x e m m' P) as [Em | [Hr [He Em]]]; subst m'; [left; reflexivity|].
      right. left. repeat split; assumption.
    + right. right. split; [reflexivity|]. apply (removal_on_error c x e m P).
Qed.

Lemma spec_origin c x o r l l' m' :
  step_spec c x o r l l' -> In m' l' ->
  (exists m, In m l /\ same_imm m m' /\ edge_ok x (m_st m) (m_st m'))
  \/ (res_ok r = true /\ exists ies p, assign_ids (enq_list x) (o_genids o) = Some ies /\ In p ies
                                       /\ m' = mk_msg (op_now x) (fst p) (snd p)).
Proof.
  intros [pm [news [E [P N]]]] Hin. subst l'. apply in_app_or in Hin. destruct Hin as [Hin | Hin].
  - left. apply apply_pm_In in Hin. destruct Hin as [m [Hm Ep]]. exists m. split; [exact Hm|].
    specialize (P m Hm). rewrite Ep in P. split; [apply (change_same_imm c x r) | apply (change_edge c x r)]; exact P.
  - right. destruct N as [N | [Hok [ies [EA En]]]]; [subst; destruct Hin|].
    split; [apply (enq_ok_res_ok x); exact Hok|]. subst news. apply in_map_iff in Hin. destruct Hin as [p [Ep Hp]].
    exists ies, p. repeat split; auto.
Qed.

Lemma spec_fate c x o r l l' m :
  NoDup (ids l) -> step_spec c x o r l l' -> In m l ->
  (exists m', In m' l' /\ change c x r m m') \/ removal c x r m.
Proof.
  intros ND [pm [news [E [P N]]]] Hm. specialize (P m Hm). destruct (pm m) as [m'|] eqn:Ep.
  - left. exists m'. split; [|exact P]. subst l'. apply in_or_app. left. apply apply_pm_In. exists m. auto.
  - right. exact P.
Qed.
