(** C02 - message conservation and legal state transitions.
    Statements, each derived from Proofs/.
    Vocabulary (Proofs/QueueStep.v): [change c x r m m'] is the documented state machine per
    operation (same / expired lease released / dequeued / settled by its current unexpired lease /
    operator mutation from an allowed state); [removal c x r m] the documented removals (ack
    without delivered-retention, DLQ delete of a dead message, retention prune of a message that is
    not leased, drop_oldest eviction of a queued message by a successful enqueue);
    [step_spec c x o r l l'] says l' is l with every message changed or removed that way, plus the
    messages of a successful enqueue. *)
From Coq Require Import List ZArith NArith Bool.
From HK Require Import Model.Queue Model.QueueMon Proofs.QueueBase Proofs.QueueInv Proofs.QueueInvStep
  Proofs.QueueStep Proofs.QueueTrace Proofs.QueueMonSound Proofs.QueueMonC02.
Import ListNotations.
Open Scope Z_scope.

(** Every state reachable by any history, on either backend flavour, under any configuration and
    any (validated) choices of the store: each id is stored exactly once, each message is in
    exactly one state and carries a lease iff that state is leased, no lease id is shared. *)
Theorem C02_exactly_once_one_state : forall fl c xs,
  let s := snd (run fl c init xs) in
  NoDup (ids (msgs s)) /\ (forall m, In m (msgs s) -> coherent m = true) /\ lease_inj (msgs s).
Proof. intros fl c xs. exact (inv_state_ok _ (reachable_inv fl c xs)). Qed.

(** Every event of every history obeys the step specification (and chains with the next one). *)
Theorem C02_every_step_legal : forall fl c xs, Forall (event_sound c) (model_trace fl c xs).
Proof. exact trace_sound. Qed.

Theorem C02_events_chained : forall fl c xs i e1 e2,
  nth_error (model_trace fl c xs) i = Some e1 -> nth_error (model_trace fl c xs) (S i) = Some e2 ->
  ev_after e1 = ev_before e2.
Proof. intros fl c xs. exact (proj2 (run_chained fl c init xs)). Qed.

(** What a legal change is: id, route, target, received_at, payload, headers, trace untouched, and
    the state moves along the documented machine for that kind of operation. *)
Theorem C02_change_keeps_identity_and_follows_machine : forall c x r m m',
  change c x r m m' -> same_imm m m' /\ edge_ok x (m_st m) (m_st m').
Proof. intros c x r m m' H. split; [exact (change_same_imm c x r m m' H) | exact (change_edge c x r m m' H)]. Qed.

(** Nothing is invented, duplicated or revived: a message stored after a step descends from a stored
    message with the same identity, or is one of the messages of a successful enqueue, verbatim. *)
Theorem C02_origin_of_every_message : forall fl c s x o s' r m',
  Inv s -> step fl c s x o = (s', r) -> In m' (msgs s') ->
  (exists m, In m (msgs s) /\ same_imm m m' /\ edge_ok x (m_st m) (m_st m'))
  \/ (res_ok r = true /\ exists ies p, assign_ids (enq_list x) (o_genids o) = Some ies /\ In p ies
                                       /\ m' = mk_msg (op_now x) (fst p) (snd p)).
Proof.
  intros fl c s x o s' r m' I H. exact (spec_origin c x o r (msgs s) (msgs s') m' (step_sound fl c s x o s' r I H)).
Qed.

(** Every stored message either survives (changed legally) or has a documented removal reason. *)
Theorem C02_fate_of_every_message : forall fl c s x o s' r m,
  Inv s -> step fl c s x o = (s', r) -> In m (msgs s) ->
  (exists m', In m' (msgs s') /\ change c x r m m') \/ removal c x r m.
Proof.
  intros fl c s x o s' r m I H. exact (spec_fate c x o r (msgs s) (msgs s') m (inv_nodup _ _ I) (step_sound fl c s x o s' r I H)).
Qed.

(** A message holding an unexpired-or-not lease is never pruned, evicted or deleted: a leased
    message disappears only through the ack of its own current, unexpired lease. *)
Theorem C02_leased_removed_only_by_its_ack : forall c x r m,
  removal c x r m -> is_leased m = true ->
  lease_op_kind x = Some KAck /\ exists lid, m_lease m = Some lid /\ In lid (presented x) /\ op_now x < m_until m.
Proof. exact removal_of_live_lease. Qed.

(** An operation that reports an error changes nothing beyond releasing leases that had already
    expired (and the interval-gated retention prune every store call may trigger). *)
Theorem C02_error_changes_nothing : forall fl c s x o s' e,
  Inv s -> step fl c s x o = (s', RErr e) ->
  exists pm, msgs s' = apply_pm pm (msgs s) /\
    forall m, In m (msgs s) ->
      pm m = Some m
      \/ (pm m = Some (release (op_now x) m) /\ expired (op_now x) m = true /\ releases x = true)
      \/ (pm m = None /\ prunes x = true /\ prune_reason c (op_now x) m).
Proof.
  intros fl c s x o s' e I H. exact (spec_error_frame c x o e (msgs s) (msgs s') (step_sound fl c s x o s' (RErr e) I H)).
Qed.

(** non-vacuity: a concrete history walks queued -> leased -> queued (nack) -> leased -> dead -> queued (requeue) *)
Example C02_witness :
  let e := mkEnq (Some 7%N) 1%N 1%N None None 5%N 0%N 0%N in
  let o0 := mkOracle [] [] [] [] in
  map (fun ev => map m_st (ev_after ev))
      (model_trace Sql (mkCfg 0 false 0 0 0 0 0 0)
         [(Enqueue 100 e, o0);
          (Dequeue 200 None None 1 1000, mkOracle [(7%N, 1%N)] [] [] []);
          (LeaseOp 300 (KNack 50) (LKnown 1%N false), o0);
          (Dequeue 400 None None 1 1000, mkOracle [(7%N, 2%N)] [] [] []);
          (LeaseOp 500 (KDead 1%N) (LKnown 2%N false), o0);
          (Manage 600 MRequeueDead [RPlain 7%N], o0)])
  = [[Queued]; [Leased]; [Queued]; [Leased]; [Dead]; [Queued]].
Proof. vm_compute. reflexivity. Qed.

(** The executable monitor, per event: conservation, coherence, legal change or documented removal of
    every stored message, every inserted message is one the operation enqueued, evictions only with a
    stored enqueue. *)
Theorem C02_monitor_holds_on_every_step : forall fl c s x o s' r,
  Inv s -> step fl c s x o = (s', r) -> fresh_enqueue (mkEvent x o r (msgs s) (msgs s')) ->
  c02_event c (mkEvent x o r (msgs s) (msgs s')) = true.
Proof.
  intros fl c s x o s' r Hi H Hfresh.
  pose proof (step_inv_eq fl c s x o s' r Hi H) as Hi'.
  destruct (step_view fl c s x o s' r Hi H Hfresh) as [pm [news [V [P N]]]].
  pose proof (c02_fates fl c s x o s' r Hi H pm news V P) as Hfates.
  unfold c02_event. cbn [ev_before ev_after]. fold (ids (msgs s')).
  rewrite (proj2 (nodupN_NoDup _) (inv_nodup _ _ Hi')), (proj2 (forallb_forall _ _) (inv_coh _ _ Hi')), Hfates,
    (c02_inserted fl c s x o s' r Hi H pm news V N). cbn [andb].
  exact (c02_evictions c _ Hfates (enq_ok_inserted fl c s x o s' r Hi H)).
Qed.

(** The executable monitor [P_C02] - the predicate the correspondence check evaluates on every trace
    observed on the Go stores - holds on every trace of the model, for both flavours, every
    configuration, every operation list and every oracle, provided no successful enqueue re-uses the
    id of a message that was stored when it started ([fresh_enqueue]: ids + immutable fields are how
    the monitor recognises a message, so a replaced message would be judged as a changed one).
    So the monitor demands nothing the model does not deliver: it cannot raise an alarm on code whose
    behaviour the model reproduces. *)
Theorem C02_monitor_holds_on_every_model_trace : forall fl c xs,
  Forall fresh_enqueue (model_trace fl c xs) -> P_C02 fl c (model_trace fl c xs) = true.
Proof.
  intros fl c xs H.
  apply (mon_all_on_run fl c _ (fun _ _ _ => True) fresh_enqueue); [| exact inv_init | exact I | exact H].
  intros s iss x o tl s' r Hi _ Es e. split; [exact I|].
  intros Hf ins. exact (C02_monitor_holds_on_every_step fl c s x o s' r Hi Es Hf).
Qed.

(** non-vacuity: a history with a drop_oldest eviction, a DLQ-depth prune, an ack removal and a
    DLQ delete meets the premise at every event (and the monitor is then true by the theorem) *)
Example C02_monitor_premise_met :
  let e i := mkEnq (Some i) 1%N 1%N None None 5%N 0%N 0%N in
  let o0 := mkOracle [] [] [] [] in
  let tr := model_trace Mem (mkCfg 2 true 0 1 0 0 1 0)
         [(Enqueue 100 (e 1%N), o0); (Enqueue 101 (e 2%N), o0);
          (Enqueue 102 (e 3%N), mkOracle [] [1%N] [] []);                    (* evicts 1 *)
          (Dequeue 200 None None 2 1000, mkOracle [(2%N, 11%N); (3%N, 12%N)] [] [] []);
          (LeaseOp 300 (KDead 1%N) (LKnown 11%N false), o0);
          (LeaseOp 301 (KDead 1%N) (LKnown 12%N false), o0);
          (Stats 400, mkOracle [] [2%N] [] []);                              (* DLQ depth 1: prunes 2 *)
          (Enqueue 401 (e 4%N), o0);
          (Dequeue 500 None None 1 1000, mkOracle [(4%N, 13%N)] [] [] []);
          (LeaseOp 501 KAck (LKnown 13%N false), o0);                         (* ack removes 4 *)
          (Manage 600 MDeleteDead [RPlain 3%N], o0)] in
  (forallb fresh_enqueueb tr, map (fun ev => map m_id (ev_after ev)) tr, P_C02 Mem (mkCfg 2 true 0 1 0 0 1 0) tr)
  = (true, [[1]; [1; 2]; [2; 3]; [2; 3]; [2; 3]; [2; 3]; [3]; [3; 4]; [3; 4]; [3]; []]%N, true).
Proof. vm_compute. reflexivity. Qed.

Print Assumptions C02_exactly_once_one_state.
Print Assumptions C02_every_step_legal.
Print Assumptions C02_events_chained.
Print Assumptions C02_change_keeps_identity_and_follows_machine.
Print Assumptions C02_origin_of_every_message.
Print Assumptions C02_fate_of_every_message.
Print Assumptions C02_leased_removed_only_by_its_ack.
Print Assumptions C02_error_changes_nothing.
Print Assumptions C02_monitor_holds_on_every_model_trace.
Print Assumptions C02_monitor_holds_on_every_step.
