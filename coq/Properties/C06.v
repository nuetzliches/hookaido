(** C06 — push delivery: outcome classification, bounded retry with back-off, DLQ.
    Statements, each derived from the lemmas of Proofs/DispatcherProofs.v and
    Proofs/RetryProofs.v. *)
From Coq Require Import ZArith QArith Qminmax Qround Qpower Lqa Lia List Bool.
From HK Require Import Model.Retry Model.Dispatcher Proofs.RetryProofs Proofs.DispatcherProofs.
Import ListNotations.
Open Scope Z_scope.

(** The complete decision table, for every status code 100..599, every error kind, every
    attempt number and every retry.max (all unbounded [Z]). *)
Theorem C06_classify_total : forall (c attempt mx : Z) (k : err_kind),
  100 <= c <= 599 ->
  (200 <= c <= 299 -> classify (RStatus c) attempt mx = AAck) /\
  ((500 <= c <= 599 \/ c = 429 \/ c = 408) ->
      (attempt <= mx -> classify (RStatus c) attempt mx = ANack) /\
      (mx < attempt -> classify (RStatus c) attempt mx = ADead MaxRetries)) /\
  ((100 <= c <= 199 \/ 300 <= c <= 399 \/ (400 <= c <= 499 /\ c <> 408 /\ c <> 429)) ->
      classify (RStatus c) attempt mx = ADead NoRetry) /\
  ((k = Net \/ k = Timeout \/ k = Other) ->
      (attempt <= mx -> classify (RErr k) attempt mx = ANack) /\
      (mx < attempt -> classify (RErr k) attempt mx = ADead MaxRetries)) /\
  ((k = PolicyDenied \/ k = PolicyDeniedWrapped) -> classify (RErr k) attempt mx = ADead PolicyDeniedR).
Proof. exact classify_total. Qed.

(** the classes of the table cover 100..599 *)
Theorem C06_code_classes_partition : forall c, 100 <= c <= 599 ->
  (200 <= c <= 299) \/ (500 <= c <= 599 \/ c = 429 \/ c = 408) \/
  (100 <= c <= 199 \/ 300 <= c <= 399 \/ (400 <= c <= 499 /\ c <> 408 /\ c <> 429)).
Proof. lia. Qed.

(** the same table as a computed sweep over all 500 codes against a table written from the
    property text *)
Theorem C06_classify_table : forall c a m, 100 <= c <= 599 ->
  enc_action (classify (RStatus c) a m) = table_action c (a <=? m).
Proof.
  intros c a m Hc. apply table_check_spec.
  apply (proj1 (forallb_forall _ _) table_all), in_codes_from. lia.
Qed.

(** converse readings, for every result whatsoever *)
Theorem C06_ack_iff_2xx : forall r a m,
  classify r a m = AAck <-> exists c, r = RStatus c /\ 200 <= c <= 299.
Proof.
  intros r a m. split.
  - intros E. apply classify_inv in E.
    destruct r as [k|c]; [discriminate|]. exists c. split; [reflexivity | apply success_code_spec, E].
  - intros (c & -> & H). apply classify_success, success_code_spec, H.
Qed.

Theorem C06_never_success_1xx_3xx : forall c a m,
  (100 <= c <= 199 \/ 300 <= c <= 399) -> classify (RStatus c) a m <> AAck.
Proof.
  intros c a m H E. apply C06_ack_iff_2xx in E. destruct E as (c' & [= <-] & E). lia.
Qed.

Theorem C06_retry_only_within_max : forall r a m,
  classify r a m = ANack -> a <= m /\ should_retry r = true /\ is_policy_denied r = false.
Proof. exact nack_implies. Qed.

Theorem C06_policy_denied_never_retried : forall r a m,
  classify r a m = ADead PolicyDeniedR <-> is_policy_denied r = true.
Proof.
  intros r a m. split; [exact (classify_inv r a m (ADead PolicyDeniedR)) | apply classify_denied].
Qed.

Theorem C06_max_retries_means_exhausted : forall r a m,
  classify r a m = ADead MaxRetries -> m < a /\ should_retry r = true.
Proof. intros r a m. exact (classify_inv r a m (ADead MaxRetries)). Qed.

(** For EVERY stream of target behaviours and jitter draws, a cycle that starts at attempt a0 >= 1
    sends the message at least once and at most retry.max + 1 times and ends delivered or dead
    with one of the three reasons - never dropped, never retried forever. *)
Theorem C06_attempts_bounded : forall rc a0 beh draw,
  0 <= rc_max rc -> 1 <= a0 ->
  let tr := dispatch_cycle rc a0 beh draw in
  1 <= sends tr <= rc_max rc + 1 /\
  sends tr <= Z.max 1 (rc_max rc + 2 - a0) /\
  exists t, snd tr = Some t /\
    (t = TDelivered \/ t = TDead NoRetry \/ t = TDead PolicyDeniedR \/ t = TDead MaxRetries).
Proof. exact attempts_bounded. Qed.

(** the bound does not depend on the fuel of the executable model *)
Theorem C06_sends_bounded_any_fuel : forall fuel rc a beh draw k,
  sends (cycle fuel rc a beh draw k) <= Z.max 1 (rc_max rc + 2 - a).
Proof. exact cycle_sends_le. Qed.

Theorem C06_cycle_fuel_irrelevant : forall f1 f2 rc a beh draw k,
  (Z.to_nat (rc_max rc + 1 - a) < f1)%nat -> (Z.to_nat (rc_max rc + 1 - a) < f2)%nat ->
  cycle f1 rc a beh draw k = cycle f2 rc a beh draw k.
Proof.
  induction f1 as [|f1 IH]; intros f2 rc a beh draw k H1 H2; [lia|].
  destruct f2 as [|f2]; [lia|]. rewrite !cycle_S. cbv zeta.
  destruct (classify (beh k) a (rc_max rc)) eqn:Ec; try reflexivity.
  apply nack_implies in Ec. rewrite (IH f2 rc (a + 1) beh draw (S k)) by lia. reflexivity.
Qed.

(** the terminal state is the one the last behaviour calls for; everything before it was a retry *)
Theorem C06_cycle_last : forall fuel rc a beh draw k t,
  snd (cycle fuel rc a beh draw k) = Some t ->
  exists n : nat, sends (cycle fuel rc a beh draw k) = Z.of_nat (S n) /\
    (forall i : nat, (i < n)%nat -> classify (beh (k + i)%nat) (a + Z.of_nat i) (rc_max rc) = ANack) /\
    match t with
    | TDelivered => classify (beh (k + n)%nat) (a + Z.of_nat n) (rc_max rc) = AAck
    | TDead why => classify (beh (k + n)%nat) (a + Z.of_nat n) (rc_max rc) = ADead why
    end.
Proof. exact cycle_last. Qed.

(** the bound is tight: a target that keeps failing is sent to exactly max+1 times *)
Theorem C06_always_failing_exhausts : forall rc beh draw,
  0 <= rc_max rc -> (forall k, should_retry (beh k) = true /\ is_success (beh k) = false) ->
  let tr := dispatch_cycle rc 1 beh draw in
  sends tr = rc_max rc + 1 /\ snd tr = Some (TDead MaxRetries).
Proof.
  intros rc beh draw Hm Hb tr. subst tr. destruct (always_failing_sends rc 1 beh draw Hb) as [Hs Ht].
  split; [lia | exact Ht].
Qed.

(** back-off window: min(base*2^(attempt-1), cap) * (1 -+ jitter) *)
Theorem C06_delay_bounds : forall (base cap attempt : Z) (u j : Q),
  (0 <= j /\ j <= 1)%Q -> 0 < base <= cap -> 1 <= attempt -> (0 <= u /\ u < 1)%Q ->
  let d := backoffQ base cap attempt in
  (d * (1 - j) <= delayQ base cap attempt u j /\ delayQ base cap attempt u j <= d * (1 + j))%Q.
Proof. exact delay_bounds. Qed.

Theorem C06_delay_ns_bounds : forall (base cap attempt : Z) (u j : Q),
  (0 <= j /\ j <= 1)%Q -> 0 < base <= cap -> cap <= max_int64 -> 1 <= attempt -> (0 <= u /\ u < 1)%Q ->
  let d := backoffQ base cap attempt in
  Qfloor (d * (1 - j)) <= delay_ns base cap attempt u j /\
  (inject_Z (delay_ns base cap attempt u j) <= d * (1 + j))%Q /\
  0 <= delay_ns base cap attempt u j <= max_int64.
Proof.
  intros base cap attempt u j Hj Hb Hcm Ha Hu d.
  destruct (delay_bounds base cap attempt u j Hj Hb Ha Hu) as [Hlo Hhi].
  apply sat_floor_window; [exact Hlo | exact Hhi | apply delay_nonneg|].
  (* d * (1 - j) <= d <= cap <= MaxInt64 *)
  pose proof (backoff_le_cap base cap attempt) as Hdc.
  pose proof (backoff_pos base cap attempt ltac:(lia) ltac:(lia)) as Hd.
  rewrite Zle_Qle in Hcm. destruct Hj as [Hj0 Hj1]. subst d. nra.
Qed.

Theorem C06_delay_nonneg : forall base cap attempt u j, (0 <= delayQ base cap attempt u j)%Q.
Proof. exact delay_nonneg. Qed.

Theorem C06_backoff_monotone : forall base cap a1 a2,
  0 < base -> a1 <= a2 -> (backoffQ base cap a1 <= backoffQ base cap a2)%Q.
Proof.
  intros base cap a1 a2 Hb Ha. unfold backoffQ. apply Q.min_le_compat; [|apply Qle_refl].
  assert (pow2Q (a1 - 1) <= pow2Q (a2 - 1))%Q by (unfold pow2Q; apply Qpower_le_compat_l; [lia | discriminate]).
  pose proof (inject_Z_pos base Hb). nra.
Qed.

(** exactly one attempt record per classify path, with the matching outcome *)
Theorem C06_attempt_recorded : forall rc a r u,
  exists rec, attempt_records rc a r u = [rec] /\
    ar_attempt rec = a /\ ar_result rec = r /\
    (classify r a (rc_max rc) = AAck -> ar_outcome rec = OAcked /\ ar_reason rec = None /\ ar_delay rec = None) /\
    (classify r a (rc_max rc) = ANack -> ar_outcome rec = ORetry /\ ar_reason rec = None /\
        ar_delay rec = Some (delayQ (rc_base rc) (rc_cap rc) a u (rc_jitter rc))) /\
    (forall why, classify r a (rc_max rc) = ADead why -> ar_outcome rec = ODead /\ ar_reason rec = Some why /\ ar_delay rec = None).
Proof. exact attempt_recorded. Qed.

(** the records of a finished cycle: attempt numbers a, a+1, ...; retries, then one terminal record *)
Theorem C06_cycle_shape : forall fuel rc a beh draw k t,
  snd (cycle fuel rc a beh draw k) = Some t ->
  consecutive a (fst (cycle fuel rc a beh draw k)) /\ retries_then t (fst (cycle fuel rc a beh draw k)).
Proof.
  induction fuel as [|f IH]; intros rc a beh draw k t; [discriminate|].
  rewrite cycle_S. unfold attempt_records. cbv zeta.
  destruct (classify (beh k) a (rc_max rc)) eqn:Ec; cbn [fst snd].
  - intros [= <-]. repeat split.
  - (* a retry record in front of the records of the rest of the cycle, which are not empty *)
    intros H. destruct (IH rc (a + 1) beh draw (S k) t H) as [I1 I2].
    destruct (fst (cycle f rc (a + 1) beh draw (S k))) as [|r' l']; [destruct I2|].
    split; (split; [reflexivity | assumption]).
  - intros [= <-]. repeat split.
Qed.

(** the lease handed out with a micro-batch covers its sequential delivery *)
Theorem C06_ttl_covers_microbatch : forall timeouts slack batch t,
  In t timeouts -> 1 <= batch ->
  batch * eff_timeout t + slack <= route_lease_ttl timeouts slack batch /\
  30 * sec <= route_lease_ttl timeouts slack batch.
Proof. exact ttl_covers_microbatch. Qed.

Theorem C06_dequeue_batch_range : forall c n,
  let b := route_dequeue_batch (eff_concurrency c) n in
  1 <= b <= 4 /\ b <= eff_concurrency c /\ (1 < n -> b <= 2) /\ route_mutation_batch b = b.
Proof.
  intros c n b. destruct (dequeue_batch_spec (eff_concurrency c) n (eff_concurrency_pos c)) as (Hb & Hc & Hn).
  split; [exact Hb|]. split; [exact Hc|]. split; [exact Hn | apply mutation_batch_id, Hb].
Qed.

Theorem C06_start_ttl_covers : forall timeouts slack conc t,
  In t timeouts ->
  let b := route_dequeue_batch (eff_concurrency conc) (Z.of_nat (length timeouts)) in
  b * eff_timeout t + eff_slack slack <= route_lease_ttl timeouts (eff_slack slack) b.
Proof.
  intros timeouts slack conc t Hin b. apply ttl_covers_microbatch; [exact Hin|].
  apply (dequeue_batch_spec (eff_concurrency conc) _ (eff_concurrency_pos conc)).
Qed.

Print Assumptions C06_classify_total.
Print Assumptions C06_classify_table.
Print Assumptions C06_ack_iff_2xx.
Print Assumptions C06_retry_only_within_max.
Print Assumptions C06_policy_denied_never_retried.
Print Assumptions C06_attempts_bounded.
Print Assumptions C06_cycle_last.
Print Assumptions C06_always_failing_exhausts.
Print Assumptions C06_delay_bounds.
Print Assumptions C06_delay_ns_bounds.
Print Assumptions C06_attempt_recorded.
Print Assumptions C06_cycle_shape.
Print Assumptions C06_ttl_covers_microbatch.
Print Assumptions C06_start_ttl_covers.
