(** C17 — HMAC signing and secret rotation windows.
    Theorem statements, each derived from the lemmas of Proofs/SigningProofs.v.

    Model: Model/Signing.v (isSigningSecretVersionValidAt, selectSigningSecretRef,
    applyDeliverySigning and the order of steps in Deliver; secrets.Version.IsValidAt,
    secrets.Set.ValidAt, loadAuth's SelectSecrets, the secret loop of HMACAuth.Verify).
    Times are integers (ns since the Unix epoch) of any size; version lists, ids, bodies,
    paths and methods are arbitrary.  SHA-256, HMAC and the secret store are universally
    quantified functions: the property is stated in terms of them. *)
From Coq Require Import String Ascii List Bool ZArith.
From HK Require Import Model.StrUtil Model.Signing Proofs.SigningProofs.
Import ListNotations.
Local Open Scope string_scope.
Local Open Scope Z_scope.

(** A version is valid exactly on [valid_from, valid_until) - no end when valid_until is absent. *)
Theorem C17_valid_at_spec : forall v t,
  valid_at v t = true <->
  v_from v <> go_zero /\ v_from v <= t /\ (v_has_until v = true -> t < v_until v).
Proof. exact valid_at_spec. Qed.

(** valid_from is inclusive and valid_until exclusive, to the nanosecond. *)
Theorem C17_window_edges : forall v,
  v_from v <> go_zero -> (v_has_until v = true -> v_from v < v_until v) ->
  valid_at v (v_from v) = true /\ valid_at v (v_from v - 1) = false /\
  (v_has_until v = true -> valid_at v (v_until v - 1) = true /\ valid_at v (v_until v) = false) /\
  (v_has_until v = false -> forall t, v_from v <= t -> valid_at v t = true).
Proof. exact window_edges. Qed.

(** The version picked is the valid version that strictly precedes every other valid version
    in the order "newer (resp. older) valid_from first, ties by smaller id"; ids are unique in a
    signing configuration (Compile refuses duplicates). *)
Theorem C17_select_spec : forall m vs t v,
  NoDup (map v_id vs) ->
  (select m vs t = Some v <->
   In v vs /\ valid_at v t = true /\
   forall w, In w vs -> valid_at w t = true ->
     w = v \/
     (match m with Newest => v_from w < v_from v | Oldest => v_from v < v_from w end
      \/ (v_from v = v_from w /\ String.ltb (v_id v) (v_id w) = true))).
Proof. exact select_spec. Qed.

(** That order is a strict total order on versions with distinct ids. *)
Theorem C17_order_strict_total : forall m,
  (forall v, ~ better m v v) /\
  (forall a b c, better m a b -> better m b c -> better m a c) /\
  (forall a b, better m a b \/ (v_from a = v_from b /\ v_id a = v_id b) \/ better m b a).
Proof. intros m. exact (conj (better_irrefl m) (conj (better_trans m) (better_total m))). Qed.

(** Nothing is selected iff no version is valid at the signing instant. *)
Theorem C17_select_none : forall m vs t,
  select m vs t = None <-> forall w, In w vs -> valid_at w t = false.
Proof. exact select_none. Qed.

(** With versions configured the secret reference always comes from the selected version
    (never from the plain secret_ref, never from an invalid version). *)
Theorem C17_ref_from_selected_version : forall c t r,
  c_versions c <> [] -> select_ref c t = Some r ->
  exists m v, c_mode c = Some m /\ select m (c_versions c) t = Some v /\ r = trim_space (v_ref v) /\ r <> "".
Proof.
  intros c t r. unfold select_ref. destruct (c_versions c) as [|v0 tl]; [congruence|]. intros _.
  destruct (c_mode c) as [m|]; [|discriminate].
  destruct (select m (v0 :: tl) t) as [v|] eqn:Es; [|discriminate].
  destruct (String.eqb_spec (trim_space (v_ref v)) "") as [|E]; [discriminate|].
  intros [= <-]. exists m, v. repeat split; trivial.
Qed.

(** The two header values: decimal Unix seconds of the signing instant, and
    hex(HMAC(secret, METHOD \n escaped-path-or-"/" \n seconds \n hex(sha256(body)))) under the
    loaded, non-empty secret of the selected reference - and signing succeeds in no other way. *)
Theorem C17_signature_is_hmac : forall sha256 hmac load c now meth path body ts sg,
  sign sha256 hmac load c now meth path body = Some (ts, sg) <->
  trim_space (c_sig_header c) <> "" /\ trim_space (c_ts_header c) <> "" /\
  exists ref secret,
    select_ref c now = Some ref /\ load ref = Some secret /\ secret <> "" /\
    ts = dec (now / 1000000000) /\
    sg = hex (hmac secret
                (to_upper meth ++ nl ++ (if (path =? "")%string then "/" else path) ++ nl
                 ++ dec (now / 1000000000) ++ nl ++ hex (sha256 body))%string).
Proof. exact sign_exact. Qed.

(** Every request that leaves for a signing target carries exactly these two headers, over the
    method, path and body actually sent. *)
Theorem C17_sent_is_signed : forall sha256 hmac load c now meth path body q,
  deliver_signed sha256 hmac load (Some c) now meth path body = Some q ->
  q_method q = meth /\ q_path q = path /\ q_body q = body /\
  exists ts sg, sign sha256 hmac load c now meth path body = Some (ts, sg) /\
                q_signed q = [(trim_space (c_ts_header c), ts); (trim_space (c_sig_header c), sg)].
Proof.
  intros sha256 hmac load c now meth path body q. unfold deliver_signed.
  destruct (sign sha256 hmac load c now meth path body) as [[ts sg]|]; [|discriminate].
  intros [= <-]. repeat split. exists ts, sg. split; reflexivity.
Qed.

(** The secret cannot be loaded (or is empty), or no version is valid: nothing is sent. *)
Theorem C17_nothing_sent_without_secret : forall sha256 hmac load c now meth path body,
  (select_ref c now = None \/
   exists ref, select_ref c now = Some ref /\ (load ref = None \/ load ref = Some "")) ->
  deliver_signed sha256 hmac load (Some c) now meth path body = None.
Proof.
  intros sha256 hmac load c now meth path body H. unfold deliver_signed.
  destruct (sign sha256 hmac load c now meth path body) as [[ts sg]|] eqn:Es; [|reflexivity].
  apply sign_exact in Es. destruct Es as (_ & _ & ref & secret & H1 & H2 & H3 & _).
  destruct H as [H|[r [Hr [H|H]]]]; congruence.
Qed.

Theorem C17_nothing_sent_when_no_version_valid : forall sha256 hmac load c now meth path body,
  c_versions c <> [] -> (forall w, In w (c_versions c) -> valid_at w now = false) ->
  deliver_signed sha256 hmac load (Some c) now meth path body = None.
Proof.
  intros sha256 hmac load c now meth path body Hne Hall.
  apply C17_nothing_sent_without_secret. left. exact (no_valid_version_no_ref c now Hne Hall).
Qed.

(** Inbound: Version.IsValidAt has the same half-open window; *)
Theorem C17_inbound_window : forall v t,
  iv_valid_at v t = true <->
  iv_from v <> go_zero /\ iv_from v <= t /\ (iv_until v <> go_zero -> t < iv_until v).
Proof. exact iv_valid_at_spec. Qed.

(** the secrets offered to the verifier are exactly the inline ones and the values of the
    versions valid at the signed timestamp (never an expired or not-yet-valid one, never a
    valid one missing); *)
Theorem C17_inbound_exact : forall vs inline t k,
  In k (select_secrets vs inline t) <->
  In k inline \/ exists v, In v vs /\ iv_valid_at v t = true /\ iv_value v = k.
Proof. exact inbound_exact. Qed.

(** and a signature is accepted iff it is the HMAC under one of those. *)
Theorem C17_inbound_accept_exact : forall hmac vs inline ts msg sg,
  vs <> [] ->
  (accepts hmac (secrets_for vs inline ts) msg sg = true <->
   exists k, k <> "" /\ hmac k msg = sg /\
     (In k inline \/ exists v, In v vs /\ iv_valid_at v (ts * 1000000000) = true /\ iv_value v = k)).
Proof.
  intros hmac vs inline ts msg sg _.
  rewrite accepts_spec. split; intros [k H]; exists k; rewrite secrets_for_In in *; tauto.
Qed.

Print Assumptions C17_valid_at_spec.
Print Assumptions C17_window_edges.
Print Assumptions C17_select_spec.
Print Assumptions C17_order_strict_total.
Print Assumptions C17_select_none.
Print Assumptions C17_ref_from_selected_version.
Print Assumptions C17_signature_is_hmac.
Print Assumptions C17_sent_is_signed.
Print Assumptions C17_nothing_sent_when_no_version_valid.
Print Assumptions C17_nothing_sent_without_secret.
Print Assumptions C17_inbound_window.
Print Assumptions C17_inbound_exact.
Print Assumptions C17_inbound_accept_exact.
