From Coq Require Import List Bool NArith.
From HK Require Import Model.ConfigMutation.
Import ListNotations.

Definition applied (r : mres) : bool := match r with MApplied => true | _ => false end.

(** For every flavour, every candidate, every oracle:
    - every content ever written is the validated candidate or the previous content;
    - the final content is the previous one or the validated candidate;
    - "applied" is reported only with the validated candidate installed and every check passed;
    - whenever the mutation is not applied and the roll-back write did not itself fail,
      the file is exactly what it was. *)
Lemma mutation_validated : forall valid fl file cand o,
  let '(file', res, writes) := mutate valid fl file cand o in
  (forall w, In w writes -> (w = Some cand /\ valid cand = true) \/ w = file)
  /\ (file' = file \/ (file' = Some cand /\ valid cand = true))
  /\ (res = MApplied -> file' = Some cand /\ valid cand = true /\ o_write o = true
                        /\ (fl = FApp -> o_post o = true /\ o_reload o = true)
                        /\ (fl = FMcpWriteAndReload -> o_reload o = true))
  /\ (res <> MApplied -> o_rollback o = true -> file' = file)
  /\ (valid cand = false -> file' = file /\ writes = [] /\ res = MInvalid).
Proof.
  intros valid fl file cand o. unfold mutate.
  destruct (valid cand) eqn:V; simpl.
  - (* A valid candidate: follow the tests [mutate] makes on the oracle, in its order (13 leaves). *)
    destruct fl, o as [w p r rb]; simpl; rewrite ?if_negb.
    all: repeat match goal with |- context [if ?b then _ else _] => destruct b; simpl end.
    (* At each leaf the triple is closed (one of [], [Some cand], [Some cand; file] written): the claim
       about the writes first, then the four others. *)
    all: split; [intros x Hx; decompose sum Hx; subst; auto|].
    all: repeat split; intros; try discriminate; try congruence; auto.
  - (* refused before any write *)
    repeat split; auto; try discriminate; intros; try contradiction.
Qed.

(** Non-vacuity: each result is reachable. *)
Example mutation_results :
  let v := fun b : cbytes => match b with [] => false | _ => true end in
  let old := Some [1%N] in let cand := [2%N] in
  map (fun o => mutate v FApp old cand o)
      [mkOrc true true true true; mkOrc false true true true; mkOrc true false true true;
       mkOrc true true false true; mkOrc true true false false]
  = [ (Some [2%N], MApplied, [Some [2%N]]);
      (old, MWriteFailed, []);
      (old, MPostValidateFailed true, [Some [2%N]; old]);
      (old, MReloadFailed true, [Some [2%N]; old]);
      (Some [2%N], MReloadFailed false, [Some [2%N]]) ]
  /\ mutate v FApp old [] (mkOrc true true true true) = (old, MInvalid, [])
  /\ mutate v FMcpWriteAndReload None cand (mkOrc true true false true) = (None, MReloadFailed true, [Some cand; None]).
Proof. vm_compute. repeat split. Qed.
