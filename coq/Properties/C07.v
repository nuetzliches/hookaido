(** C07 - end-to-end payload and header fidelity.
    Theorem statements, each derived from the lemmas of Proofs/. *)
From Coq Require Import List NArith ZArith Bool.
From HK Require Import Model.Queue Model.Headers Model.Base64 Model.Publish.
From HK Require Import Proofs.HeadersProofs Proofs.Base64Proofs Proofs.FidelityProofs Proofs.PublishProofs.
Import ListNotations.
Open Scope N_scope.

(** Go's CanonicalMIMEHeaderKey is idempotent (a stored key read back and stored again does not move). *)
Theorem C07_canon_key_idempotent : forall s, canon_key (canon_key s) = canon_key s.
Proof. exact canon_key_idempotent. Qed.

(** Authorization / Proxy-Authorization / Cookie received at ingress are never persisted, for
    EVERY header map (any keys, canonical or not, any spelling of the three names), every
    limit and every forward-auth extras: a stored key whose lower-case form is one of the
    three can only be a configured forward-auth copy_headers extra, carrying the auth
    service's value. *)
Theorem C07_stripped_never_stored : forall h max extra out k v,
  copy_headers h max extra = CopyOk out ->
  mget k out = Some v -> stripped k = true ->
  exists e, In e extra /\ snd e = v /\ canon_key (trim_space (fst e)) = k.
Proof. exact stripped_never_stored. Qed.

Theorem C07_stripped_never_stored_keys : forall h max out k,
  copy_headers h max [] = CopyOk out -> In k (map fst out) -> stripped k = false.
Proof.
  intros h max out k Hc Hin. apply mget_keys in Hin. destruct Hin as [v Hv].
  destruct (stripped k) eqn:E; auto.
  destruct (stripped_never_stored _ _ _ _ _ _ Hc Hv E) as [e [[] _]].
Qed.

(** every upper/lower-case spelling of the three names is recognised *)
Theorem C07_stripped_case_variants : forall k name,
  In name stripped_names -> lower k = name -> stripped k = true.
Proof. intros k name Hin Hl. apply stripped_spec. rewrite Hl. exact Hin. Qed.

(** The stored header map for the header lines net/http accepted ([w], wire order). *)
Theorem C07_copy_headers_spec : forall w max extra out,
  copy_headers (group w) max extra = CopyOk out ->
  (forall n, stripped n = false -> extra_lookup (canon_key n) extra = None ->
     mget (canon_key n) out =
     match wire_values n w with [] => None | vs => Some (join_comma vs) end)
  /\ (forall k v, extra_lookup k extra = Some v -> mget k out = Some v)
  /\ (forall k, In k (map fst out) <->
        (exists n, In n (map fst w) /\ stripped n = false /\ canon_key n = k)
        \/ (exists e, In e extra /\ canon_key (trim_space (fst e)) = k /\ k <> []))
  /\ ((0 < max)%Z -> (kv_size out <= max)%Z).
Proof. exact copy_headers_spec. Qed.

Theorem C07_copy_headers_reject : forall h max extra, (0 < max)%Z ->
  (copy_headers h max extra = CopyReject <-> (max < kv_size (append_extras (copy_base h) extra))%Z).
Proof.
  intros h max extra Hm. unfold copy_headers.
  rewrite (proj2 (Z.leb_gt max 0) Hm), <- Z.ltb_lt.
  destruct (max <? kv_size (append_extras (copy_base h) extra))%Z; split; congruence.
Qed.

(** base64 StdEncoding: decode after encode is the identity on every byte string (every
    length, i.e. every padding case); the encoder's output alphabet and length. *)
Theorem C07_b64_roundtrip : forall bs, Forall (fun c => c < 256) bs -> decode (encode bs) = Some bs.
Proof. exact b64_roundtrip. Qed.

Theorem C07_b64_alphabet : forall bs, Forall (fun c => c < 256) bs ->
  Forall (fun c => is_b64 c = true \/ c = pad) (encode bs) /\
  length (encode bs) = (4 * ((length bs + 2) / 3))%nat.
Proof. intros bs Hw. split; [apply encode_alphabet; exact Hw | apply encode_length]. Qed.

Theorem C07_b64_encode_injective : forall a b,
  Forall (fun c => c < 256) a -> Forall (fun c => c < 256) b -> encode a = encode b -> a = b.
Proof.
  intros a b Ha Hb H. apply b64_roundtrip in Ha. apply b64_roundtrip in Hb.
  rewrite H in Ha. congruence.
Qed.

(** The queue keeps content: one step of any operation (both backends, any oracle) leaves
    every stored message's id / route / target / received_at / payload / headers / trace as
    they were, or the message was created by this very enqueue. *)
Theorem C07_step_content : forall fl c s x o m',
  In m' (msgs (fst (step fl c s x o))) ->
  (exists m, In m (msgs s) /\ same_content m m') \/ created x o m'.
Proof. exact step_content. Qed.

(** ... hence after any history (dequeue, nack and redelivery, lease expiry, requeue,
    restart ...) whatever is stored - and therefore whatever a dequeue or a listing hands
    out - carries the payload/header/trace of the enqueue that created it. *)
Theorem C07_payload_preserved : forall fl c xs evs sf,
  run fl c init xs = (evs, sf) ->
  forall m, In m (msgs sf) ->
  exists x o now es ies i e,
    In (x, o) xs /\ (x = EnqueueBatch now es \/ (exists e1, es = [e1] /\ x = Enqueue now e1)) /\
    assign_ids es (o_genids o) = Some ies /\ In (i, e) ies /\
    m_id m = i /\ m_body m = e_body e /\ m_hdr m = e_hdr e /\ m_trace m = e_trace e /\
    m_route m = e_route e /\ m_target m = e_target e.
Proof. exact payload_preserved. Qed.

(** publish path: the payload that is stored is the decoded payload_b64 of the item, the
    headers are the item's headers. *)
Theorem C07_publish_payload : forall hb hh x items es now e,
  Forall2 (accepted_global x) items es -> In e es ->
  shape_ok hb hh x now e (stored hb hh now e) /\
  exists it, In it items /\ payload_of (i_payload it) = Some (pe_payload e) /\ pe_headers e = i_headers it.
Proof. exact published_shape_global. Qed.

Print Assumptions C07_canon_key_idempotent.
Print Assumptions C07_stripped_never_stored.
Print Assumptions C07_stripped_never_stored_keys.
Print Assumptions C07_stripped_case_variants.
Print Assumptions C07_copy_headers_spec.
Print Assumptions C07_copy_headers_reject.
Print Assumptions C07_b64_roundtrip.
Print Assumptions C07_b64_alphabet.
Print Assumptions C07_b64_encode_injective.
Print Assumptions C07_step_content.
Print Assumptions C07_payload_preserved.
Print Assumptions C07_publish_payload.
