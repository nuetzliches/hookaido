(** The waiting dequeue (Model/LongPoll.v): it answers with the first non-empty attempt, it gives
    the empty answer only when every attempt up to the deadline found nothing, and an attempt that
    finds a ready message ends the wait - no message that is ready at one of the attempts stays
    hidden behind a sleeping consumer. *)
From Coq Require Import List ZArith NArith Bool Lia.
From HK Require Import Model.Queue Model.LongPoll Proofs.QueueInv Proofs.QueueInvStep Proofs.QueueLease.
Import ListNotations.
Open Scope Z_scope.

Section Poll.
Variables (fl : flavour) (c : cfg) (route target : option N) (batch ttl : Z).

Notation LP := (long_poll fl c route target batch ttl).
Notation AM := (attempts_made fl c route target batch ttl).
Notation SB := (state_before fl c route target batch ttl).

Lemma run_env_inv s xs : Inv s -> Inv (run_env fl c s xs).
Proof. intros I. unfold run_env. apply run_inv. exact I. Qed.

Lemma state_before_made ats : forall s k sk, SB s ats k = Some sk -> (k < AM s ats)%nat.
Proof.
  induction ats as [|a tl IH]; intros s k sk H; [destruct k; discriminate|].
  destruct k as [|k']; cbn [state_before attempts_made] in *.
  - destruct (step fl c _ _ _) as [s1 r]. destruct (empty_items r); lia.
  - destruct (step fl c (run_env fl c s (at_env a)) _ _) as [s1 r]. destruct (empty_items r); [|discriminate].
    specialize (IH s1 k' sk H). lia.
Qed.

Lemma state_before_inv ats : forall s k sk, Inv s -> SB s ats k = Some sk -> Inv sk.
Proof.
  induction ats as [|a tl IH]; intros s k sk I H; [destruct k; discriminate|].
  pose proof (run_env_inv s (at_env a) I) as I0.
  destruct k as [|k']; cbn [state_before] in H.
  - inversion H; subst. exact I0.
  - pose proof (step_inv fl c _ (Dequeue (at_now a) route target batch ttl) (at_orc a) I0) as I1.
    destruct (step fl c (run_env fl c s (at_env a)) _ _) as [s1 r]. destruct (empty_items r); [|discriminate].
    apply (IH s1 k' sk I1 H).
Qed.

Lemma long_poll_answer ats : forall s, ats <> [] ->
  exists r, snd (LP s ats) = Some r /\ (empty_items r = true -> AM s ats = length ats).
Proof.
  induction ats as [|a tl IH]; intros s Hne; [contradiction|]. cbn [long_poll attempts_made].
  destruct (step fl c (run_env fl c s (at_env a)) _ _) as [s1 r]. destruct (empty_items r) eqn:E.
  - destruct tl as [|b tl']; [exists r; split; reflexivity|].
    destruct (IH s1) as [r' [Er Ee]]; [discriminate|].
    exists r'. split; [exact Er | intros H; rewrite (Ee H); reflexivity].
  - exists r. split; [reflexivity | congruence].
Qed.

Lemma long_poll_stops_at ats : forall s k sk a s1 r,
  SB s ats k = Some sk -> nth_error ats k = Some a ->
  step fl c sk (Dequeue (at_now a) route target batch ttl) (at_orc a) = (s1, r) -> empty_items r = false ->
  AM s ats = S k /\ snd (LP s ats) = Some r.
Proof.
  induction ats as [|a0 tl IH]; intros s k sk a s1 r H Hn Es E; [destruct k; discriminate|].
  destruct k as [|k']; cbn [state_before nth_error long_poll attempts_made] in *.
  - inversion H; subst sk. inversion Hn; subst a0. rewrite Es, E. split; reflexivity.
  - destruct (step fl c (run_env fl c s (at_env a0)) _ _) as [s0 r0]. destruct (empty_items r0); [|discriminate].
    destruct (IH s0 k' sk a s1 r H Hn Es E) as [Ea Er]. split; [rewrite Ea; reflexivity|].
    destruct tl as [|b tl']; [destruct k'; discriminate | exact Er].
Qed.

(** an attempt that selects from a state holding a ready message of the route/target returns at least one message
    (the oracle being one the model allows): the wait ends there *)
Lemma attempt_finds_ready sk now o m :
  Inv sk -> In m (msgs (deq_pre fl c now o sk)) -> ready now route target m = true ->
  forall s1 r, step fl c sk (Dequeue now route target batch ttl) o = (s1, r) -> r <> RBadOracle ->
  empty_items r = false.
Proof.
  intros I Hm Hr s1 r Hs Hb. cbn [step] in Hs.
  destruct r; try reflexivity; try (exfalso; apply Hb; reflexivity).
  - (* the answer has min (clamped batch, number of ready messages) items, both at least 1 *)
    destruct l as [|x xs]; [exfalso | reflexivity].
    destruct (dequeue_sound fl c now route target batch ttl o sk s1 [] I Hs) as [_ [_ [Hc _]]]. cbn [length] in Hc.
    pose proof (clamp_batch_range batch) as Hb1.
    assert (Hin : In m (filter (ready now route target) (msgs (deq_pre fl c now o sk)))) by (apply filter_In; split; assumption).
    destruct (filter (ready now route target) (msgs (deq_pre fl c now o sk))); [destruct Hin | simpl in Hc; lia].
Qed.

End Poll.
