(** C13 over whole histories: the regime in which the per-step agreement theorems of Proofs/QueueFlavour.v
    apply at every step. *)
From Coq Require Import List ZArith NArith Bool.
From HK Require Import Model.Queue Proofs.QueueFlavour.
Import ListNotations.
Open Scope Z_scope.

Definition agree_step_ok (c : cfg) (x : op) (o : oracle) (ss : state) : Prop :=
  match x with
  | Dequeue now _ _ _ _ => sql_sweep_due now (last_sweep ss) = true
  | Enqueue now _ | EnqueueBatch now _ =>
      (c_drop_oldest c = false \/ c_max_depth c <= 0) /\ mem_rules_off c (msgs (prune c now (o_gone o) ss))
  | Reopen _ => False
  | _ => True
  end.

Fixpoint agree_hist (c : cfg) (ss : state) (xs : list (op * oracle)) : Prop :=
  match xs with
  | [] => True
  | (x, o) :: tl => agree_step_ok c x o ss /\ agree_hist c (fst (step Sql c ss x o)) tl
  end.

Lemma step_agree c x o sm ss :
  same_obs sm ss -> agree_step_ok c x o ss ->
  snd (step Mem c sm x o) = snd (step Sql c ss x o)
  /\ same_obs (fst (step Mem c sm x o)) (fst (step Sql c ss x o)).
Proof.
  intros S Hok.
  destruct x as [now e|now es|now route target batch ttl|now k l|now k ls|now k idl|now k f|now f ord|now route limit before|now idl|now|now];
    try (apply flavour_free_agree; [reflexivity | exact S]).
  - cbn [step]. destruct Hok as [Hpol Hoff].
    destruct (enqueue_agree_reject c now true [e] o sm ss (fun _ => eq_refl) S Hpol Hoff) as [A [B [Cc D]]].
    split; [exact A | repeat split; assumption].
  - cbn [step]. destruct Hok as [Hpol Hoff].
    destruct (enqueue_agree_reject c now false es o sm ss (fun H => ltac:(discriminate H)) S Hpol Hoff) as [A [B [Cc D]]].
    split; [exact A | repeat split; assumption].
  - cbn [step]. apply dequeue_agree; assumption.
  - destruct Hok.
Qed.
