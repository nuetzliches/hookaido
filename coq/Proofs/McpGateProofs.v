(** The MCP gate of Model/McpGate.v over the tables of Gen/McpTables.v (C20): [access] is [run_checks] over the check order read
    from the source; [gate_spec]; agreement of the tables with the documented specification by evaluation, lifted to all
    strings by [set_eq_mem]; dispatch and audit of one call. *)
From Coq Require Import String List Bool Arith Lia.
From HK Require Import Gen.McpTables Model.McpGate Model.McpSpec.
Import ListNotations.
Open Scope string_scope.

Lemma mem_str_In x l : mem_str x l = true <-> In x l.
Proof.
  unfold mem_str. rewrite existsb_exists. split.
  - intros [y [Hy He]]. apply String.eqb_eq in He. subst. exact Hy.
  - intros H. exists x. split; [exact H | apply String.eqb_refl].
Qed.

Definition subset (a b : list string) : bool := forallb (fun x => mem_str x b) a.

Lemma subset_incl a b : subset a b = true -> forall x, In x a -> In x b.
Proof.
  unfold subset. rewrite forallb_forall. intros H x Hx. apply mem_str_In. apply H. exact Hx.
Qed.

Lemma set_eq_mem a b :
  subset a b = true -> subset b a = true -> forall x, mem_str x a = mem_str x b.
Proof.
  intros Hab Hba x. apply eq_true_iff_eq. rewrite !mem_str_In.
  split; apply subset_incl; assumption.
Qed.

Lemma lookup_role_In t tbl r : lookup_role t tbl = Some r -> In (t, r) tbl.
Proof.
  induction tbl as [|[k r0] tl IH]; simpl; [discriminate|].
  destruct (String.eqb_spec t k) as [->|_].
  - intros [= ->]. left. reflexivity.
  - intros H. right. apply IH. exact H.
Qed.

Lemma lookup_role_mem t tbl :
  match lookup_role t tbl with Some _ => true | None => false end = mem_str t (map fst tbl).
Proof.
  induction tbl as [|[k r] tl IH]; [reflexivity|].
  cbn [lookup_role map fst]. unfold mem_str in *. cbn [existsb].
  destruct (String.eqb t k); [reflexivity | exact IH].
Qed.

Lemma known_mem t : known t = mem_str t (map fst required_role_table).
Proof. apply lookup_role_mem. Qed.

Lemma required_known t r : required t = Some r -> known t = true.
Proof. unfold known. intros ->. reflexivity. Qed.

Lemma run_checks_allowed s t cs :
  run_checks s t cs = Allowed <-> Forall (fun c => check_fails s t c = false) cs.
Proof.
  induction cs as [|c cs IH]; cbn [run_checks].
  - split; constructor.
  - rewrite Forall_cons_iff, <- IH. destruct (check_fails s t c).
    + split; [discriminate | intros [H _]; discriminate H].
    + tauto.
Qed.

(** Every way of being refused names a failed clause. *)
Lemma denied_reason s t c :
  access s t = Denied c -> check_fails s t c = true /\ In c access_order.
Proof.
  unfold access. generalize access_order as cs. induction cs as [|c0 tl IH]; cbn [run_checks]; [discriminate|].
  destruct (check_fails s t c0) eqn:E.
  - intros [= <-]. split; [exact E | left; reflexivity].
  - intros H. destruct (IH H) as [H1 H2]. split; [exact H1 | right; exact H2].
Qed.

(** The order of the checks is what the theorems below assume; it is read off the
    source by the translator, so a reordered / removed / added check breaks this. *)
Lemma access_order_is :
  access_order = [CkUnknown; CkMutFlag; CkRtFlag; CkRole; CkPrincipal].
Proof. reflexivity. Qed.

Lemma gate_flags : gate_before_dispatch = true /\ descriptors_filtered_by_gate = true.
Proof. split; reflexivity. Qed.

Lemma andb_false_imp a b : a && b = false <-> (a = true -> b = false).
Proof. destruct a, b; cbn; intuition discriminate. Qed.

Lemma check_passes s t c :
  check_fails s t c = false <->
  match c with
  | CkUnknown => known t = true
  | CkMutFlag => needs_mut t = true -> s_mut s = true
  | CkRtFlag => needs_rt t = true -> s_rt s = true
  | CkRole => exists r, required t = Some r /\ rank r <= rank (s_role s)
  | CkPrincipal => mutating t = true -> s_principal s <> ""
  | CkUnrecognized => False
  end.
Proof.
  destruct c; cbn [check_fails].
  - apply negb_false_iff.
  - rewrite andb_false_imp, negb_false_iff. reflexivity.
  - rewrite andb_false_imp, negb_false_iff. reflexivity.
  - destruct (required t) as [r|].
    + rewrite negb_false_iff, Nat.leb_le.
      split; [intros H; exists r; auto | intros [r' [[= <-] H]]; exact H].
    + split; [discriminate | intros [r [H _]]; discriminate H].
  - rewrite andb_false_imp, String.eqb_neq. reflexivity.
  - split; [discriminate | contradiction].
Qed.

(** the gate is exactly the documented conjunction, for every string *)
Lemma gate_spec s t :
  access s t = Allowed <->
  exists r, required t = Some r /\ rank r <= rank (s_role s)
            /\ (needs_mut t = true -> s_mut s = true)
            /\ (needs_rt t = true -> s_rt s = true)
            /\ (mutating t = true -> s_principal s <> "").
Proof.
  unfold access. rewrite access_order_is, run_checks_allowed, Forall_fold_right. cbn [fold_right].
  split.
  - intros (_ & Hm & Hrt & Hr & Hp & _). apply check_passes in Hm, Hrt, Hr, Hp.
    destruct Hr as [r [Hr Hrk]]. exists r. repeat split; assumption.
  - intros (r & Hr & Hrk & Hm & Hrt & Hp).
    (* the first check is implied by the role check: a tool with a required role is known *)
    split; [apply check_passes; exact (required_known _ _ Hr)|].
    split; [apply check_passes; exact Hm|].
    split; [apply check_passes; exact Hrt|].
    split; [apply check_passes; exists r; split; assumption|].
    split; [apply check_passes; exact Hp | exact I].
Qed.

Lemma allowed_known s t : access s t = Allowed -> known t = true.
Proof. intros H. apply gate_spec in H. destruct H as [r [Hr _]]. exact (required_known _ _ Hr). Qed.

(** raising the role / switching flags on never takes a permission away *)
Lemma access_monotone s s' t :
  rank (s_role s) <= rank (s_role s') ->
  (s_mut s = true -> s_mut s' = true) -> (s_rt s = true -> s_rt s' = true) ->
  (s_principal s <> "" -> s_principal s' <> "") ->
  access s t = Allowed -> access s' t = Allowed.
Proof.
  intros Hr Hm Ht Hp Ha. apply gate_spec in Ha. apply gate_spec.
  destruct Ha as (r & A & B & C & D & E). exists r. repeat split; auto. lia.
Qed.

Lemma role_monotone s s' t :
  rank (s_role s) <= rank (s_role s') -> s_mut s' = s_mut s -> s_rt s' = s_rt s ->
  s_principal s' = s_principal s ->
  access s t = Allowed -> access s' t = Allowed.
Proof.
  intros Hr Hm Ht Hp. apply access_monotone; [exact Hr | rewrite Hm | rewrite Ht | rewrite Hp]; auto.
Qed.

(** * The tables agree with each other (finite tables: evaluation over all rows, lifted to
    every string by [set_eq_mem]) *)

Lemma dispatch_total t : known t = mem_str t dispatch_list.
Proof. rewrite known_mem. apply set_eq_mem; vm_compute; reflexivity. Qed.

Lemma descriptors_cover t : known t = mem_str t descriptor_list.
Proof. rewrite known_mem. apply set_eq_mem; vm_compute; reflexivity. Qed.

Fixpoint nodupb (l : list string) : bool :=
  match l with [] => true | x :: tl => negb (mem_str x tl) && nodupb tl end.

Lemma nodupb_NoDup l : nodupb l = true -> NoDup l.
Proof.
  induction l as [|x tl IH]; intros H; [constructor|].
  apply andb_true_iff in H as [H1 H2]. constructor; [|exact (IH H2)].
  intros Hin. apply mem_str_In in Hin. rewrite Hin in H1. discriminate.
Qed.

Lemma descriptors_nodup : NoDup descriptor_list.
Proof. apply nodupb_NoDup. vm_compute. reflexivity. Qed.

(** mutating tools: gated by a feature flag, need at least [operate] *)
Definition mutating_row_ok (t : string) : bool :=
  (needs_mut t || needs_rt t) &&
  match required t with Some r => Nat.leb (rank ROperate) (rank r) | None => false end.

Lemma mutating_rows : forallb mutating_row_ok mutating_list = true.
Proof. vm_compute. reflexivity. Qed.

Lemma mutating_gated t :
  mutating t = true ->
  (needs_mut t = true \/ needs_rt t = true) /\
  exists r, required t = Some r /\ rank ROperate <= rank r.
Proof.
  intros H. apply mem_str_In in H.
  pose proof (proj1 (forallb_forall _ _) mutating_rows t H) as R.
  unfold mutating_row_ok in R. apply andb_true_iff in R. destruct R as [R1 R2].
  split; [apply orb_true_iff; exact R1|].
  destruct (required t) as [r|]; [|discriminate].
  exists r. split; [reflexivity | apply Nat.leb_le; exact R2].
Qed.

(** * tools/list advertises exactly what tools/call would allow *)
Lemma list_call_agree s t : In t (list_tools s) <-> access s t = Allowed.
Proof.
  unfold list_tools. rewrite (proj2 gate_flags), filter_In. unfold allowedb. split.
  - intros [_ H]. destruct (access s t); [reflexivity | discriminate].
  - intros H. split; [|rewrite H; reflexivity].
    apply mem_str_In. rewrite <- descriptors_cover. exact (allowed_known _ _ H).
Qed.

(** * tools/call: the gate precedes dispatch, and every tool it lets through has a handler *)
Lemma call_allowed s t : access s t = Allowed -> call s t = ODispatched.
Proof.
  intros H. unfold call. rewrite H, (proj1 gate_flags), <- dispatch_total, (allowed_known _ _ H).
  reflexivity.
Qed.

Lemma call_denied s t c : access s t = Denied c -> call s t = ODenied c.
Proof. intros H. unfold call. rewrite H. reflexivity. Qed.

Lemma denied_no_dispatch s t : access s t <> Allowed -> exists c, call s t = ODenied c.
Proof.
  destruct (access s t) as [|c] eqn:E; [congruence | intros _; exists c; exact (call_denied _ _ _ E)].
Qed.

(** * audit: exactly one record per mutating call, whatever the outcome; none otherwise *)
Lemma audit_mutating s t b :
  mutating t = true ->
  audit s t b = [match access s t with
                 | Allowed => if b then ASuccess else AError
                 | Denied _ => ADenied
                 end].
Proof.
  intros Hm. unfold audit. rewrite Hm. destruct (access s t) eqn:Ea.
  - rewrite (call_allowed _ _ Ea). reflexivity.
  - rewrite (call_denied _ _ _ Ea). reflexivity.
Qed.

Lemma audit_once s t b :
  mutating t = true ->
  exists a, audit s t b = [a] /\
            (a = ADenied <-> access s t <> Allowed) /\
            (access s t = Allowed -> a = if b then ASuccess else AError).
Proof.
  intros Hm. rewrite (audit_mutating _ _ _ Hm). eexists. split; [reflexivity|].
  destruct (access s t); split.
  - split; [destruct b; discriminate | congruence].
  - reflexivity.
  - split; [discriminate | reflexivity].
  - discriminate.
Qed.

Lemma audit_none s t b : mutating t = false -> audit s t b = [].
Proof. intros H. unfold audit. rewrite H. reflexivity. Qed.

(** * path confinement (trimmed inputs) *)
Lemma path_confined cfg arg p :
  resolve_config_path cfg arg = Some p -> p = cfg /\ cfg <> "".
Proof.
  unfold resolve_config_path. destruct (String.eqb_spec cfg "") as [|Hc].
  { (* an empty configured path is refused on every branch *)
    destruct arg as [a|]; [destruct (String.eqb a "")|]; discriminate. }
  destruct arg as [a|]; [destruct (String.eqb a "")|].
  - intros [= <-]. split; [reflexivity | exact Hc].
  - destruct (String.eqb_spec a cfg) as [->|]; [|discriminate].
    intros [= <-]. split; [reflexivity | exact Hc].
  - intros [= <-]. split; [reflexivity | exact Hc].
Qed.

(** * the code's tables are the documented tables (every documented tool) *)
Definition spec_row_ok (row : string * (role * bool * bool * bool)) : bool :=
  let '(t, (r, m, rt, mu)) := row in
  match required t with Some r' => role_eqb r r' | None => false end
  && Bool.eqb (needs_mut t) m && Bool.eqb (needs_rt t) rt && Bool.eqb (mutating t) mu.

Lemma spec_rows : forallb spec_row_ok spec_table = true.
Proof. vm_compute. reflexivity. Qed.

Lemma role_eqb_eq a b : role_eqb a b = true -> a = b.
Proof. destruct a, b; simpl; congruence. Qed.

Lemma spec_row_ok_sound t r m rt mu :
  spec_row_ok (t, (r, m, rt, mu)) = true ->
  required t = Some r /\ needs_mut t = m /\ needs_rt t = rt /\ mutating t = mu.
Proof.
  unfold spec_row_ok. intros R.
  apply andb_true_iff in R as [R Hmu]. apply andb_true_iff in R as [R Hrt].
  apply andb_true_iff in R as [R Hm].
  destruct (required t) as [r'|]; [|discriminate].
  apply role_eqb_eq in R. subst r'.
  apply Bool.eqb_prop in Hmu, Hrt, Hm. auto.
Qed.

Lemma spec_lookup_In t tbl v : spec_lookup t tbl = Some v -> In (t, v) tbl.
Proof.
  induction tbl as [|[k v0] tl IH]; simpl; [discriminate|].
  destruct (String.eqb_spec t k) as [->|_].
  - intros [= ->]. left. reflexivity.
  - intros H. right. apply IH. exact H.
Qed.

(** non-vacuity: a concrete server for which a mutating tool is allowed and one for which it is not *)
Example gate_example_allowed :
  access {| s_role := RAdmin; s_mut := true; s_rt := false; s_principal := "ops" |} "config_apply" = Allowed.
Proof. vm_compute. reflexivity. Qed.

Example gate_example_denied :
  access {| s_role := ROperate; s_mut := true; s_rt := false; s_principal := "ops" |} "config_apply" = Denied CkRole.
Proof. vm_compute. reflexivity. Qed.
