(** Lemmas about Model/Publish.v composed with Model/Queue.v (C15). *)
From Coq Require Import List ZArith NArith Bool Lia.
From HK Require Import Model.Queue Model.Headers Model.HeaderValidate Model.Publish.
From HK Require Import Proofs.QueueBase Proofs.FidelityProofs.
Import ListNotations.
Open Scope Z_scope.

Lemma Forall2_imp : forall {A B} (P Q : A -> B -> Prop) l1 l2,
  (forall a b, P a b -> Q a b) -> Forall2 P l1 l2 -> Forall2 Q l1 l2.
Proof. intros A B P Q l1 l2 H F. induction F; constructor; auto. Qed.

Lemma Forall2_in_l : forall {A B} (R : A -> B -> Prop) l1 l2 a,
  Forall2 R l1 l2 -> In a l1 -> exists b, In b l2 /\ R a b.
Proof.
  intros A B R l1 l2 a F. induction F; intros Hin; simpl in *; try contradiction.
  destruct Hin as [Hin | Hin].
  - subst. eauto.
  - destruct (IHF Hin) as [b [Hb Hr]]. eauto.
Qed.

Lemma Forall2_in_r : forall {A B} (R : A -> B -> Prop) l1 l2 b,
  Forall2 R l1 l2 -> In b l2 -> exists a, In a l1 /\ R a b.
Proof.
  intros A B R l1 l2 b F. induction F; intros Hin; simpl in *; try contradiction.
  destruct Hin as [Hin | Hin].
  - subst. eauto.
  - destruct (IHF Hin) as [a [Ha Hr]]. eauto.
Qed.

Lemma Forall2_len : forall {A B} (R : A -> B -> Prop) l1 l2, Forall2 R l1 l2 -> length l1 = length l2.
Proof. intros A B R l1 l2 F. induction F; simpl; auto. Qed.

Lemma memN_in : forall x l, memN x l = true <-> In x l.
Proof.
  intros. unfold memN. rewrite existsb_exists. split.
  - intros [y [Hy Hb]]. apply N.eqb_eq in Hb. subst. auto.
  - intros H. exists x. split; auto. apply N.eqb_refl.
Qed.

(** ids seen by parsePublishItems... before it looks at item [k] *)
Definition seen_after (items : list item) (seen : list N) : list N :=
  fold_left (fun s it => match trimmed_id (i_id it) with Some id => id :: s | None => s end) items seen.

Lemma seen_after_cons : forall it l seen id,
  trimmed_id (i_id it) = Some id -> seen_after (it :: l) seen = seen_after l (id :: seen).
Proof. intros it l seen id E. unfold seen_after. simpl. rewrite E. reflexivity. Qed.

Lemma parse_not_bad_id : forall req seen it,
  parse_item_bad req seen it = false -> exists id, trimmed_id (i_id it) = Some id.
Proof.
  intros req seen it H. unfold parse_item_bad in H. destruct (trimmed_id (i_id it)); eauto. discriminate.
Qed.

(** no item offends at pass 1 when the scan starts with [seen]; [parse_ok_all] below is the
    case [seen = []] *)
Definition parse_ok_from (req : bool) (seen : list N) (items : list item) : Prop :=
  forall k it, nth_error items k = Some it ->
    parse_item_bad req (seen_after (firstn k items) seen) it = false.

Lemma parse_ok_from_cons : forall req seen it id tl, trimmed_id (i_id it) = Some id ->
  (parse_ok_from req seen (it :: tl) <->
   parse_item_bad req seen it = false /\ parse_ok_from req (id :: seen) tl).
Proof.
  intros req seen it id tl Eid. split.
  - intros H. split; [exact (H 0%nat it eq_refl)|].
    intros k it' Hn. rewrite <- (seen_after_cons it _ seen id Eid). exact (H (S k) it' Hn).
  - intros [H0 Ht] [|k] it' Hn; cbn [firstn].
    + inversion Hn; subst. exact H0.
    + rewrite (seen_after_cons _ _ _ _ Eid). exact (Ht k it' Hn).
Qed.

Lemma parse_scan_spec : forall req items seen i,
  match parse_scan req seen items i with
  | Some j => exists k it, j = (i + k)%nat /\ nth_error items k = Some it /\
      parse_item_bad req (seen_after (firstn k items) seen) it = true /\
      forall k' it', (k' < k)%nat -> nth_error items k' = Some it' ->
        parse_item_bad req (seen_after (firstn k' items) seen) it' = false
  | None => parse_ok_from req seen items
  end.
Proof.
  induction items as [|it tl IH]; intros seen i; simpl.
  - intros [|k] it Hn; discriminate.
  - destruct (parse_item_bad req seen it) eqn:Eb.
    + exists 0%nat, it. repeat split; auto; intros; lia.
    + destruct (parse_not_bad_id _ _ _ Eb) as [id Eid]. rewrite Eid.
      specialize (IH (id :: seen) (S i)). destruct (parse_scan req (id :: seen) tl (S i)) as [j|].
      * destruct IH as [k [it0 [Hj [Hn [Hbad Hpre]]]]]. exists (S k), it0.
        repeat split; auto; try lia.
        -- cbn [firstn]. rewrite (seen_after_cons _ _ _ _ Eid). exact Hbad.
        -- intros [|k'] it' Hlt Hn'; cbn [firstn].
           ++ inversion Hn'; subst. exact Eb.
           ++ rewrite (seen_after_cons _ _ _ _ Eid). apply Hpre; [lia | exact Hn'].
      * apply (parse_ok_from_cons _ _ _ _ _ Eid). auto.
Qed.

Lemma find_index_spec : forall {A} (p : A -> bool) l i,
  match find_index p l i with
  | Some j => exists k a, j = (i + k)%nat /\ nth_error l k = Some a /\ p a = true /\
      forall k' a', (k' < k)%nat -> nth_error l k' = Some a' -> p a' = false
  | None => forall a, In a l -> p a = false
  end.
Proof.
  induction l as [|a tl IH]; intros i; simpl; [tauto|].
  destruct (p a) eqn:Ep.
  - exists 0%nat, a. repeat split; auto; intros; lia.
  - specialize (IH (S i)). destruct (find_index p tl (S i)) as [j|].
    + destruct IH as [k [a0 [Hj [Hn [Hp Hpre]]]]]. exists (S k), a0. repeat split; auto; try lia.
      intros [|k'] a' Hlt Hn'; simpl in Hn'.
      * inversion Hn'; subst. exact Ep.
      * apply (Hpre k'); [lia | exact Hn'].
    + intros b [<- | Hb]; auto.
Qed.

Lemma sem_scan_spec : forall f items i,
  match sem_scan f items i with
  | inr (j, st, c) => exists k it, j = (i + k)%nat /\ nth_error items k = Some it /\ f it = inr (st, c) /\
      forall k' it', (k' < k)%nat -> nth_error items k' = Some it' -> exists e, f it' = inl e
  | inl es => Forall2 (fun it e => f it = inl e) items es
  end.
Proof.
  induction items as [|it tl IH]; intros i; simpl; [constructor|].
  destruct (f it) as [e | [st0 c0]] eqn:Ef.
  - specialize (IH (S i)). destruct (sem_scan f tl (S i)) as [es | [[j st] c]].
    + constructor; auto.
    + destruct IH as [k [it0 [Hj [Hn [Hf Hpre]]]]]. exists (S k), it0. repeat split; auto; try lia.
      intros [|k'] it' Hlt Hn'; simpl in Hn'.
      * inversion Hn'; subst. eauto.
      * apply (Hpre k'); [lia | exact Hn'].
  - exists 0%nat, it. repeat split; auto; intros; lia.
Qed.

Lemma resolve_target_in : forall t allowed v, resolve_target t allowed = Some v -> In v allowed.
Proof.
  intros t allowed v H. unfold resolve_target in H.
  destruct allowed as [|a tl]; try discriminate.
  destruct t as [w|].
  - destruct (memN w (a :: tl)) eqn:E; try discriminate. inversion H; subst. apply memN_in, E.
  - destruct tl; try discriminate. inversion H; subst. left. reflexivity.
Qed.

Record envelope_facts (it : item) (id r t : N) (maxb maxh : Z) (e : penv) : Prop := {
  ef_id : pe_id e = id;
  ef_route : pe_route e = r;
  ef_target : pe_target e = t;
  ef_payload : payload_of (i_payload it) = Some (pe_payload e);
  ef_body_fits : blen (pe_payload e) <= maxb;
  ef_headers : pe_headers e = i_headers it;
  ef_headers_valid : validate_map (pe_headers e) = true;
  ef_headers_fit : kv_size (pe_headers e) <= maxh;
  ef_recv : time_of (i_recv it) = Some (pe_recv e);
  ef_next : time_of (i_next it) = Some (pe_next e);
  ef_trace : pe_trace e = i_trace it }.

Lemma envelope_cases : forall it id r t maxb maxh,
  match envelope it id r t maxb maxh with
  | inl e => envelope_facts it id r t maxb maxh e
  | inr (st, _) => st <> 200
  end.
Proof.
  intros it id r t maxb maxh. unfold envelope.
  destruct (time_of (i_recv it)) as [recv|] eqn:Er; [|discriminate].
  destruct (time_of (i_next it)) as [next|] eqn:En; [|discriminate].
  destruct (payload_of (i_payload it)) as [p|] eqn:Ep; [|discriminate].
  destruct (Z.ltb_spec maxb (blen p)); [discriminate|].
  destruct (validate_map (i_headers it)) eqn:Ev; simpl; [|discriminate].
  destruct (Z.ltb_spec maxh (kv_size (i_headers it))); [discriminate|].
  constructor; simpl; auto.
Qed.

Lemma targets_for_route : forall x r t, In t (targets_for x r) ->
  exists rt, find_route x r = Some rt /\ In t (norm_targets (r_targets rt)).
Proof.
  intros x r t H. unfold targets_for in H. destruct (find_route x r) as [rt|]; [eauto | contradiction].
Qed.

Record accepted_global (x : ctx) (it : item) (e : penv) : Prop := {
  ag_route : i_route it = RSPath (pe_route e);
  ag_no_selector : blank_l (i_app it) = true /\ blank_l (i_ep it) = true;
  ag_unmanaged : route_is_managed x (pe_route e) = false;
  ag_policy : route_policy_error x (pe_route e) (targets_for x (pe_route e)) false = None;
  ag_target : In (pe_target e) (targets_for x (pe_route e));
  ag_id : trimmed_id (i_id it) = Some (pe_id e);
  ag_env : envelope_facts it (pe_id e) (pe_route e) (pe_target e)
                          (eff_max_body x (pe_route e)) (eff_max_headers x (pe_route e)) e }.

Lemma sem_global_cases : forall x it,
  match sem_global x it with
  | inl e => accepted_global x it e
  | inr (st, _) => st <> 200
  end.
Proof.
  intros x it. unfold sem_global.
  destruct (trimmed_id (i_id it)) as [id|] eqn:Eid; [|discriminate].
  destruct (Bool.eqb (blank_l (i_app it)) (blank_l (i_ep it))) eqn:Eab; simpl; [|discriminate].
  destruct (blank_l (i_app it)) eqn:Ea; simpl; [|discriminate].
  destruct (i_route it) as [| |r] eqn:Er; try discriminate.
  destruct (route_is_managed x r) eqn:Em; [discriminate|].
  destruct (targets_for x r) as [|t0 ts] eqn:Et; [discriminate|].
  destruct (route_policy_error x r (t0 :: ts) false) eqn:Ep; [discriminate|].
  destruct (resolve_target (i_target it) (t0 :: ts)) as [t|] eqn:Ert; [|discriminate].
  pose proof (envelope_cases it id r t (eff_max_body x r) (eff_max_headers x r)) as He.
  destruct (envelope it id r t (eff_max_body x r) (eff_max_headers x r)) as [e|[st c]]; [|exact He].
  destruct (He) as [Hid Hr Ht _ _ _ _ _ _ _ _].
  subst id r t. apply resolve_target_in in Ert. rewrite <- Et in *.
  constructor; auto.
  split; auto. apply Bool.eqb_prop in Eab. congruence.
Qed.

Record accepted_scoped (x : ctx) (r : N) (targets : list N) (it : item) (e : penv) : Prop := {
  as_no_hints : has_hints it = false;
  as_route : pe_route e = r;
  as_target : In (pe_target e) targets;
  as_id : trimmed_id (i_id it) = Some (pe_id e);
  as_env : envelope_facts it (pe_id e) r (pe_target e) (eff_max_body x r) (eff_max_headers x r) e }.

Lemma sem_scoped_cases : forall x r targets it,
  match sem_scoped x r targets it with
  | inl e => accepted_scoped x r targets it e
  | inr (st, _) => st <> 200
  end.
Proof.
  intros x r targets it. unfold sem_scoped.
  destruct (trimmed_id (i_id it)) as [id|] eqn:Eid; [|discriminate].
  destruct (has_hints it) eqn:Eh; [discriminate|].
  destruct (resolve_target (i_target it) targets) as [t|] eqn:Ert; [|discriminate].
  pose proof (envelope_cases it id r t (eff_max_body x r) (eff_max_headers x r)) as He.
  destruct (envelope it id r t (eff_max_body x r) (eff_max_headers x r)) as [e|[st c]]; [|exact He].
  destruct (He) as [Hid Hr Ht _ _ _ _ _ _ _ _].
  subst id t. apply resolve_target_in in Ert.
  constructor; auto.
Qed.

Definition parse_ok_all (req : bool) (items : list item) : Prop :=
  forall k it, nth_error items k = Some it ->
    parse_item_bad req (seen_after (firstn k items) []) it = false.

Definition count_ok (items : list item) : Prop :=
  (1 <= Z.of_nat (length items) <= max_items).

Lemma count_ok_dec : forall items,
  ((Z.of_nat (length items) =? 0) || (max_items <? Z.of_nat (length items))) = false <-> count_ok items.
Proof.
  intros. unfold count_ok. rewrite orb_false_iff. rewrite Z.eqb_neq, Z.ltb_ge. lia.
Qed.

(** Reject with an item index: which pass found it, that the named item is the offender at
    that pass, and that no earlier item offends at that pass (earlier passes found nothing). *)
Inductive offender_global (x : ctx) (items : list item) (st : Z) (c : code) (k : nat) (it : item) : Prop :=
| OgParse :
    st = 400 -> c = CInvalidBody ->
    parse_item_bad true (seen_after (firstn k items) []) it = true ->
    (forall k' it', (k' < k)%nat -> nth_error items k' = Some it' ->
                    parse_item_bad true (seen_after (firstn k' items) []) it' = false) ->
    offender_global x items st c k it
| OgManagedSelector :
    parse_ok_all true items ->
    st = 400 -> c = CScopedRequired -> has_managed_selector it = true ->
    (forall k' it', (k' < k)%nat -> nth_error items k' = Some it' -> has_managed_selector it' = false) ->
    offender_global x items st c k it
| OgSemantic :
    parse_ok_all true items ->
    (forall it', In it' items -> has_managed_selector it' = false) ->
    sem_global x it = inr (st, c) ->
    (forall k' it', (k' < k)%nat -> nth_error items k' = Some it' -> item_ok_global x it' = true) ->
    offender_global x items st c k it.

Theorem items_global_spec : forall x ok items,
  match items_global x ok items with
  | Accept es =>
      ok = true /\ count_ok items /\ parse_ok_all true items /\
      (forall it, In it items -> has_managed_selector it = false) /\
      Forall2 (accepted_global x) items es
  | Reject st c idx =>
      (idx = -1 /\ st = 400 /\ c = CInvalidBody /\ (ok = false \/ ~ count_ok items)) \/
      (exists k it, idx = Z.of_nat k /\ nth_error items k = Some it /\ offender_global x items st c k it)
  end.
Proof.
  intros x ok items. unfold items_global.
  destruct ok; simpl; [|left; auto].
  destruct ((Z.of_nat (length items) =? 0) || (max_items <? Z.of_nat (length items))) eqn:Ec.
  { left. repeat split; auto. right. intros Hc. apply count_ok_dec in Hc. congruence. }
  apply count_ok_dec in Ec.
  pose proof (parse_scan_spec true items [] 0) as Hp. destruct (parse_scan true [] items 0) as [i|].
  { right. destruct Hp as [k [it [-> [Hn [Hb Hpre]]]]]. exists k, it. repeat split; auto. apply OgParse; auto. }
  pose proof (find_index_spec has_managed_selector items 0) as Hm.
  destruct (find_index has_managed_selector items 0) as [i|].
  { right. destruct Hm as [k [it [-> [Hn [Hs Hpre]]]]]. exists k, it. repeat split; auto.
    apply OgManagedSelector; auto. }
  pose proof (sem_scan_spec (sem_global x) items 0) as Hs.
  destruct (sem_scan (sem_global x) items 0) as [es | [[i st] c]].
  - split; [reflexivity|]. split; [exact Ec|]. split; [exact Hp|]. split; [exact Hm|].
    eapply Forall2_imp; [|exact Hs].
    intros it e He. pose proof (sem_global_cases x it) as Hc. rewrite He in Hc. exact Hc.
  - right. destruct Hs as [k [it [-> [Hn [Hf Hpre]]]]]. exists k, it. repeat split; auto.
    apply OgSemantic; auto.
    intros k' it' Hlt Hn'. destruct (Hpre k' it' Hlt Hn') as [e He]. unfold item_ok_global. rewrite He. reflexivity.
Qed.

Inductive offender_scoped (x : ctx) (r : N) (targets : list N) (items : list item) (st : Z) (c : code) (k : nat) (it : item) : Prop :=
| OsParse :
    st = 400 -> c = CInvalidBody ->
    parse_item_bad false (seen_after (firstn k items) []) it = true ->
    (forall k' it', (k' < k)%nat -> nth_error items k' = Some it' ->
                    parse_item_bad false (seen_after (firstn k' items) []) it' = false) ->
    offender_scoped x r targets items st c k it
| OsSemantic :
    parse_ok_all false items ->
    sem_scoped x r targets it = inr (st, c) ->
    (forall k' it', (k' < k)%nat -> nth_error items k' = Some it' -> item_ok_scoped x r targets it' = true) ->
    offender_scoped x r targets items st c k it.

Theorem items_scoped_spec : forall x r targets ok items,
  match items_scoped x r targets ok items with
  | Accept es =>
      ok = true /\ count_ok items /\ parse_ok_all false items /\
      Forall2 (accepted_scoped x r targets) items es
  | Reject st c idx =>
      (idx = -1 /\ st = 400 /\ c = CInvalidBody /\ (ok = false \/ ~ count_ok items)) \/
      (exists k it, idx = Z.of_nat k /\ nth_error items k = Some it /\ offender_scoped x r targets items st c k it)
  end.
Proof.
  intros x r targets ok items. unfold items_scoped.
  destruct ok; simpl; [|left; auto].
  destruct ((Z.of_nat (length items) =? 0) || (max_items <? Z.of_nat (length items))) eqn:Ec.
  { left. repeat split; auto. right. intros Hc. apply count_ok_dec in Hc. congruence. }
  apply count_ok_dec in Ec.
  pose proof (parse_scan_spec false items [] 0) as Hp. destruct (parse_scan false [] items 0) as [i|].
  { right. destruct Hp as [k [it [-> [Hn [Hb Hpre]]]]]. exists k, it. repeat split; auto. apply OsParse; auto. }
  pose proof (sem_scan_spec (sem_scoped x r targets) items 0) as Hs.
  destruct (sem_scan (sem_scoped x r targets) items 0) as [es | [[i st] c]].
  - split; [reflexivity|]. split; [exact Ec|]. split; [exact Hp|].
    eapply Forall2_imp; [|exact Hs].
    intros it e He. pose proof (sem_scoped_cases x r targets it) as Hc. rewrite He in Hc. exact Hc.
  - right. destruct Hs as [k [it [-> [Hn [Hf Hpre]]]]]. exists k, it. repeat split; auto.
    apply OsSemantic; auto.
    intros k' it' Hlt Hn'. destruct (Hpre k' it' Hlt Hn') as [e He]. unfold item_ok_scoped. rewrite He. reflexivity.
Qed.

Lemma items_global_status : forall x ok items st c i,
  items_global x ok items = Reject st c i -> st <> 200.
Proof.
  intros x ok items st c i H. pose proof (items_global_spec x ok items) as S. rewrite H in S.
  destruct S as [[_ [-> _]] | [k [it [_ [_ Ho]]]]]; [discriminate|].
  destruct Ho as [-> | _ -> | _ _ Hf _]; try discriminate.
  pose proof (sem_global_cases x it) as Hc. rewrite Hf in Hc. exact Hc.
Qed.

Lemma items_scoped_status : forall x r ts ok items st c i,
  items_scoped x r ts ok items = Reject st c i -> st <> 200.
Proof.
  intros x r ts ok items st c i H. pose proof (items_scoped_spec x r ts ok items) as S. rewrite H in S.
  destruct S as [[_ [-> _]] | [k [it [_ [_ Ho]]]]]; [discriminate|].
  destruct Ho as [-> | _ Hf _]; try discriminate.
  pose proof (sem_scoped_cases x r ts it) as Hc. rewrite Hf in Hc. exact Hc.
Qed.

Lemma preflight_global_cases : forall x a ok items,
  (exists st c, preflight_global x a ok items = Reject st c (-1) /\ c <> CInvalidBody /\ st <> 200) \/
  preflight_global x a ok items = items_global x ok items.
Proof.
  intros. unfold preflight_global.
  destruct (x_direct x); simpl.
  2:{ left. exists 403, CGlobalDisabled. repeat split; discriminate. }
  destruct (parse_audit x a) as [[[reason actor] reqid]|].
  2:{ left. exists 400, CAuditReason. repeat split; discriminate. }
  destruct (audit_policy_error x actor reqid false) as [c|] eqn:E; [|right; reflexivity].
  left. exists 400, c. repeat split; [|discriminate].
  (* whichever test of mutationAuditPolicyError fires, the code it answers is an audit code *)
  unfold audit_policy_error in E.
  repeat match type of E with
         | (if ?b then _ else _) = _ => destruct b
         end; inversion E; discriminate.
Qed.

Definition scope_of (x : ctx) (app ep : lsel) : option (N * list N) :=
  match app, ep with
  | LValid ap, LValid en =>
      match find_endpoint x ap en with
      | Some rt => Some (r_path rt, targets_for x (r_path rt))
      | None => None
      end
  | _, _ => None
  end.

Lemma preflight_scoped_cases : forall x app ep a ok items,
  (exists st c, preflight_scoped x app ep a ok items = Reject st c (-1) /\ st <> 200) \/
  (exists r targets, scope_of x app ep = Some (r, targets) /\ targets <> [] /\
                     route_policy_error x r targets true = None /\
                     preflight_scoped x app ep a ok items = items_scoped x r targets ok items).
Proof.
  intros. unfold preflight_scoped, scope_of.
  assert (R : forall st c, st <> 200 -> exists st' c', Reject st c (-1) = Reject st' c' (-1) /\ st' <> 200) by eauto.
  destruct app as [| |ap]; try (left; apply R; discriminate).
  destruct ep as [| |en]; try (left; apply R; discriminate).
  destruct (x_managed x); simpl; [|left; apply R; discriminate].
  destruct (find_endpoint x ap en) as [rt|]; [|left; apply R; discriminate].
  destruct (targets_for x (r_path rt)) as [|t0 ts] eqn:Et; [left; apply R; discriminate|].
  destruct (parse_audit x a) as [[[reason actor] reqid]|]; [|left; apply R; discriminate].
  destruct (audit_policy_error x actor reqid true); [left; apply R; discriminate|].
  destruct (route_policy_error x (r_path rt) (t0 :: ts) true) eqn:Ep; [left; apply R; discriminate|].
  right. exists (r_path rt), (t0 :: ts). repeat split; auto. discriminate.
Qed.

Section Store.
Variable hb : bytes -> N.
Variable hh : smap -> N.

(** the message the store creates for an accepted item *)
Definition stored (now : Z) (e : penv) : msg := mk_msg now (pe_id e) (to_enq hb hh e).

Lemma assign_ids_to_enq : forall es gen,
  assign_ids (map (to_enq hb hh) es) gen = Some (map (fun e => (pe_id e, to_enq hb hh e)) es).
Proof.
  induction es as [|e tl IH]; intros gen; simpl; auto. rewrite IH. reflexivity.
Qed.

Lemma stored_shape : forall now e,
  let m := stored now e in
  m_id m = pe_id e /\ m_route m = pe_route e /\ m_target m = pe_target e /\ m_st m = Queued /\
  m_attempt m = 0 /\ m_lease m = None /\ m_body m = hb (pe_payload e) /\ m_hdr m = hh (pe_headers e) /\
  m_recv m = match pe_recv e with Some t => t | None => now end.
Proof. intros. unfold m, stored, mk_msg, to_enq. simpl. repeat split; auto. Qed.

Definition unchanged (c : cfg) (now : Z) (o : oracle) (s s' : state) : Prop :=
  s' = s \/ s' = prune c now (o_gone o) s.

Lemma unchanged_msgs : forall c now o s s' m, unchanged c now o s s' -> In m (msgs s') -> In m (msgs s).
Proof. intros c now o s s' m [H | H] Hin; subst; auto. eapply prune_sub; eauto. Qed.

(** EnqueueBatch is all or nothing, and every id of the batch is explicit *)
Theorem commit_batch_atomic : forall fl c now o es s s' r,
  commit_batch hb hh fl c now o es s = (s', r) ->
  match r with
  | ROk n => n = Z.of_nat (length es) /\
             exists kept, msgs s' = kept ++ map (stored now) es /\ (forall m, In m kept -> In m (msgs s))
  | RFail st _ _ => st <> 200 /\ unchanged c now o s s'
  end.
Proof.
  intros fl c now o es s s' r H. unfold commit_batch in H.
  destruct (first_existing (map pe_id es) s).
  { inversion H; subst. split; [discriminate | left; reflexivity]. }
  destruct (step_enqueue fl c now false (map (to_enq hb hh) es) o s) as [s2 r2] eqn:E.
  apply step_enqueue_stored in E. rewrite assign_ids_to_enq in E.
  destruct E as [[He [-> ->]] | [[Hn _] | [[-> [e ->]] | [ies [kept [Ha [Hm [Hk ->]]]]]]]].
  - (* empty batch *)
    apply map_eq_nil in He. inversion H; subst. split; [reflexivity|].
    exists (msgs s'). rewrite app_nil_r. auto.
  - (* every id is given, so the oracle's ids are not asked for *)
    discriminate Hn.
  - (* the store refuses: only the prune has happened *)
    inversion H; subst. destruct e; simpl; split; try discriminate; right; reflexivity.
  - inversion Ha; subst ies. inversion H; subst. rewrite map_length. split; [reflexivity|].
    exists kept. rewrite Hm, map_map. auto.
Qed.

Definition all_stored (ids : list N) (l : list msg) : Prop :=
  forall i, In i ids -> exists m, In m l /\ m_id m = i /\ m_st m = Queued.

Definition item_ids (items : list item) : list N :=
  flat_map (fun it => match trimmed_id (i_id it) with Some id => [id] | None => [] end) items.

Lemma stored_all : forall now es kept, all_stored (map pe_id es) (kept ++ map (stored now) es).
Proof.
  intros now es kept i Hin. apply in_map_iff in Hin. destruct Hin as [e [He Hin]].
  exists (stored now e). split; [apply in_or_app; right; apply in_map; auto|].
  destruct (stored_shape now e) as [H1 [_ [_ [H4 _]]]]. split; congruence.
Qed.

Lemma accepted_ids : forall (R : item -> penv -> Prop) items es,
  (forall it e, R it e -> trimmed_id (i_id it) = Some (pe_id e)) ->
  Forall2 R items es -> item_ids items = map pe_id es.
Proof.
  intros R items es Hid F. induction F as [|it e items es HR F IH]; simpl; auto.
  rewrite (Hid it e HR), IH. reflexivity.
Qed.

(** The all-or-nothing argument, for either handler: [p] is its verdict on the request and
    [R] what an accepted item looks like.  Status 200 means every item is stored; any other
    status means the queue is as it was (up to the retention prune). *)
Theorem finish_atomic : forall (R : item -> penv -> Prop) fl c now o p items s s' r,
  (forall it e, R it e -> trimmed_id (i_id it) = Some (pe_id e)) ->
  (forall st cd i, p = Reject st cd i -> st <> 200) ->
  (forall es, p = Accept es -> Forall2 R items es) ->
  finish hb hh true fl c now o p s = (s', r) ->
  match r with
  | ROk n => n = Z.of_nat (length items) /\ all_stored (item_ids items) (msgs s') /\
             exists es kept, p = Accept es /\ Forall2 R items es /\
                             msgs s' = kept ++ map (stored now) es /\
                             (forall m, In m kept -> In m (msgs s))
  | RFail st _ _ => st <> 200 /\ unchanged c now o s s'
  end.
Proof.
  intros R fl c now o p items s s' r Hid Hst Hacc H. unfold finish in H. destruct p as [es | st cd i].
  - specialize (Hacc es eq_refl). apply commit_batch_atomic in H. destruct r; auto.
    destruct H as [Hn [kept [Hm Hk]]]. split; [|split].
    + rewrite (Forall2_len _ _ _ Hacc). exact Hn.
    + rewrite (accepted_ids R items es Hid Hacc), Hm. apply stored_all.
    + exists es, kept. auto.
  - inversion H; subst. split; [eapply Hst; eauto | left; reflexivity].
Qed.

Record shape_ok (x : ctx) (now : Z) (e : penv) (m : msg) : Prop := {
  sh_state : m_st m = Queued;
  sh_fresh : m_attempt m = 0 /\ m_lease m = None;
  sh_route_target : exists rt, find_route x (m_route m) = Some rt /\
                               In (m_target m) (norm_targets (r_targets rt));
  sh_payload : m_body m = hb (pe_payload e) /\ blen (pe_payload e) <= eff_max_body x (m_route m);
  sh_headers : m_hdr m = hh (pe_headers e) /\ validate_map (pe_headers e) = true /\
               kv_size (pe_headers e) <= eff_max_headers x (m_route m) }.

Lemma shape_of_env : forall x now it e r t,
  envelope_facts it (pe_id e) r t (eff_max_body x r) (eff_max_headers x r) e ->
  In t (targets_for x r) -> shape_ok x now e (stored now e).
Proof.
  intros x now it e r t [Hid Hr Ht Hp Hb Hh Hv Hf _ _ _] Hin.
  destruct (stored_shape now e) as [S1 [S2 [S3 [S4 [S5 [S6 [S7 [S8 _]]]]]]]].
  constructor; auto.
  - rewrite S2, S3, Hr, Ht. apply targets_for_route. auto.
  - rewrite S2, Hr. auto.
  - rewrite S2, Hr. auto.
Qed.

Theorem published_shape_global : forall x items es now e,
  Forall2 (accepted_global x) items es -> In e es ->
  shape_ok x now e (stored now e) /\
  exists it, In it items /\ payload_of (i_payload it) = Some (pe_payload e) /\ pe_headers e = i_headers it.
Proof.
  intros x items es now e F Hin. destruct (Forall2_in_r _ _ _ _ F Hin) as [it [Hit Ha]].
  destruct Ha as [_ _ _ _ Ht _ Henv]. split.
  - exact (shape_of_env x now it e _ _ Henv Ht).
  - exists it. destruct Henv. auto.
Qed.

End Store.

Lemma find_id_id : forall l i m, find_id i l = Some m -> m_id m = i.
Proof.
  induction l as [|a tl IH]; intros i m H; simpl in H; try discriminate.
  destruct (N.eqb_spec (m_id a) i); [inversion H; subst; reflexivity | eauto].
Qed.

Lemma norm_ids_nodup : forall ids seen, NoDup ids -> (forall i, In i ids -> ~ In i seen) ->
  norm_ids (map RPlain ids) seen = ids.
Proof.
  induction ids as [|a tl IH]; intros seen Hnd Hs; simpl; auto.
  inversion Hnd as [|? ? Hna Hnd']; subst.
  destruct (memN a seen) eqn:E; [apply memN_in in E; destruct (Hs a (or_introl eq_refl) E)|].
  f_equal. apply IH; auto.
  intros i Hi [<- | Hin]; [contradiction | exact (Hs i (or_intror Hi) Hin)].
Qed.

Lemma lookup_ids_filter : forall ids s, NoDup ids ->
  lookup_ids ids s = filter (fun i => has_id i (msgs s)) ids.
Proof.
  intros ids s Hnd. unfold lookup_ids, step_lookup. cbn [snd].
  rewrite norm_ids_nodup by auto. unfold has_id.
  induction ids as [|a tl IH]; simpl; auto. inversion Hnd; subst.
  destruct (find_id a (msgs s)) as [m|] eqn:E; simpl; rewrite IH by auto; auto.
  rewrite (find_id_id _ _ _ E). reflexivity.
Qed.

Lemma last_index_of_notin : forall ids i k best, ~ In i ids -> last_index_of i ids k best = best.
Proof.
  induction ids as [|a tl IH]; intros i k best H; simpl; auto.
  destruct (N.eqb_spec i a).
  - subst. exfalso. apply H. left. reflexivity.
  - apply IH. intros Hc. apply H. right. auto.
Qed.

Lemma last_index_of_nodup : forall pre i suf k, NoDup (pre ++ i :: suf) ->
  last_index_of i (pre ++ i :: suf) k None = Some (k + length pre)%nat.
Proof.
  induction pre as [|a pre IH]; intros i suf k Hnd; simpl in *; inversion Hnd as [|? ? Hna Hnd']; subst.
  - rewrite N.eqb_refl, last_index_of_notin by auto. f_equal. lia.
  - destruct (N.eqb_spec i a) as [->|_].
    + exfalso. apply Hna, in_or_app. right. left. reflexivity.
    + rewrite IH by auto. f_equal. lia.
Qed.

(** the step of the fold in [first_existing] *)
Definition min_step (ids : list N) (best : option nat) (i : N) : option nat :=
  match last_index_of i ids 0 None with
  | Some k => match best with
              | Some b => if Nat.ltb k b then Some k else best
              | None => Some k
              end
  | None => best
  end.

(** The ids found are met in the order of the batch, so the minimum is settled by the first
    one: while scanning [suf], [best] is an index into [pre] or nothing yet. *)
Lemma fold_min_find : forall p suf pre best, NoDup (pre ++ suf) ->
  (forall b, best = Some b -> (b < length pre)%nat) ->
  fold_left (min_step (pre ++ suf)) (filter p suf) best =
  match best with Some b => Some b | None => find_index p suf (length pre) end.
Proof.
  induction suf as [|a suf IH]; intros pre best Hnd Hb; simpl.
  - destruct best; reflexivity.
  - assert (Hlen : length (pre ++ [a]) = S (length pre)) by (rewrite app_length; simpl; lia).
    assert (Ha : min_step (pre ++ a :: suf) best a =
                 Some (match best with Some b => b | None => length pre end)).
    { unfold min_step. rewrite last_index_of_nodup by exact Hnd. simpl.
      destruct best as [b|]; [|reflexivity].
      destruct (Nat.ltb_spec (length pre) b); [specialize (Hb b eq_refl); lia | reflexivity]. }
    replace (pre ++ a :: suf) with ((pre ++ [a]) ++ suf) in * by (rewrite <- app_assoc; reflexivity).
    destruct (p a); simpl.
    + rewrite Ha, IH; auto.
      * destruct best; reflexivity.
      * intros b Eb. inversion Eb. rewrite Hlen. destruct best as [b'|]; [specialize (Hb b' eq_refl)|]; lia.
    + rewrite IH, Hlen; auto. intros b Eb. specialize (Hb b Eb). lia.
Qed.

(** pass 4 (firstExistingMessageIDIndex over LookupMessages) names the first item whose id is
    already stored *)
Theorem first_existing_find : forall ids s, NoDup ids ->
  first_existing ids s = find_index (fun i => has_id i (msgs s)) ids 0.
Proof.
  intros ids s Hnd. unfold first_existing. rewrite lookup_ids_filter by exact Hnd.
  apply (fold_min_find _ ids [] None Hnd). discriminate.
Qed.

Lemma parse_ok_from_nodup : forall req items seen, parse_ok_from req seen items ->
  NoDup (item_ids items) /\ forall i, In i (item_ids items) -> ~ In i seen.
Proof.
  induction items as [|it tl IH]; intros seen H; simpl.
  - split; [constructor | tauto].
  - destruct (parse_not_bad_id req seen it (H 0%nat it eq_refl)) as [id Eid]. rewrite Eid. simpl.
    apply (parse_ok_from_cons _ _ _ _ _ Eid) in H. destruct H as [Hb Ht].
    apply IH in Ht. destruct Ht as [Hnd Hnew].
    unfold parse_item_bad in Hb. rewrite Eid in Hb. apply orb_false_iff in Hb. destruct Hb as [_ Hm].
    split.
    + constructor; auto. intros Hin. apply (Hnew id Hin). left. reflexivity.
    + intros i [<- | Hi] Hs; [apply memN_in in Hs; congruence | apply (Hnew i Hi); right; exact Hs].
Qed.

Section Dup.
Variable hb : bytes -> N.
Variable hh : smap -> N.

(** 409 duplicate_id with an item index: the index is the one the handler's own lookup
    ([first_existing]) found - or, for a store without BatchEnqueuer, the lookup found nothing
    and the index is that of the per-item Enqueue that met the id. *)
Theorem duplicate_first_offender : forall batching fl c now o es s s' k,
  NoDup (map pe_id es) ->
  finish hb hh batching fl c now o (Accept es) s = (s', RFail 409 CDuplicateId (Z.of_nat k)) ->
  first_existing (map pe_id es) s = Some k \/
  (batching = false /\ first_existing (map pe_id es) s = None).
Proof.
  intros batching fl c now o es s s' k _ H. unfold finish in H.
  destruct batching.
  - unfold commit_batch in H. destruct (first_existing (map pe_id es) s) as [k0|].
    + inversion H. left. f_equal. unfold zidx in *. lia.
    + (* an error of the store itself carries no item index *)
      exfalso. destruct (step_enqueue fl c now false (map (to_enq hb hh) es) o s) as [s2 r2].
      destruct r2; try (inversion H; fail).
      destruct e; simpl in H; inversion H; lia.
  - unfold commit_each in H. destruct (first_existing (map pe_id es) s) as [k0|].
    + inversion H. left. f_equal. unfold zidx in *. lia.
    + right. auto.
Qed.

End Dup.

(** the handler's fallback for a store without BatchEnqueuer is not all-or-nothing *)
Definition w_route : route := mkRoute 1%N [9%N] true true true true 0 0 None.
Definition w_ctx : ctx := mkCtx true true true true true false false [] [] 0 0 [w_route].
Definition w_cfg : cfg := mkCfg 1 false 0 0 0 0 0 0.
Definition w_audit : audit := mkAudit [114%N] [] [].
Definition w_item (i : N) : item := mkItem (RPlain i) (RSPath 1%N) None LBlank LBlank TAbsent TAbsent [] [] 0%N.
Definition w_orc : oracle := mkOracle [] [] [] [].

Theorem fallback_not_atomic_refuted :
  exists fl c now o x a items s',
    publish_global hash_bytes hash_smap false fl c now o x a true items init = (s', RFail 503 CQueueFull 1)
    /\ msgs s' <> msgs init
    /\ prune_due c now (last_prune init) = false
    /\ publish_global hash_bytes hash_smap true fl c now o x a true items init = (init, RFail 503 CQueueFull (-1)).
Proof.
  exists Sql, w_cfg, 5, w_orc, w_ctx, w_audit, [w_item 1%N; w_item 2%N].
  eexists. split; [vm_compute; reflexivity|]. split; [discriminate|]. split; vm_compute; reflexivity.
Qed.

(** non-vacuity: an accepted batch, a batch refused at each pass *)
Example ex_accept :
  exists s', publish_global hash_bytes hash_smap true Mem (mkCfg 10 false 0 0 0 0 0 0) 5 w_orc w_ctx w_audit true
                            [w_item 1%N; w_item 2%N; w_item 3%N] init = (s', ROk 3) /\ length (msgs s') = 3%nat.
Proof. eexists. split; vm_compute; reflexivity. Qed.

Example ex_reject_parse :
  preflight_global w_ctx w_audit true [w_item 1%N; w_item 2%N; w_item 1%N] = Reject 400 CInvalidBody 2.
Proof. vm_compute. reflexivity. Qed.

Example ex_reject_selector :
  preflight_global w_ctx w_audit true
    [w_item 1%N; mkItem (RPlain 2%N) (RSPath 1%N) None (LValid 1%N) (LValid 1%N) TAbsent TAbsent [] [] 0%N]
  = Reject 400 CScopedRequired 1.
Proof. vm_compute. reflexivity. Qed.

Example ex_reject_semantic :
  preflight_global w_ctx w_audit true
    [w_item 1%N; mkItem (RPlain 2%N) (RSPath 1%N) None LBlank LBlank TAbsent TAbsent [65%N; 65%N; 65%N] [] 0%N]
  = Reject 400 CInvalidPayload 1.
Proof. vm_compute. reflexivity. Qed.

Example ex_reject_existing :
  exists s1, publish_global hash_bytes hash_smap true Sql (mkCfg 10 false 0 0 0 0 0 0) 5 w_orc w_ctx w_audit true [w_item 2%N] init = (s1, ROk 1)
  /\ publish_global hash_bytes hash_smap true Sql (mkCfg 10 false 0 0 0 0 0 0) 6 w_orc w_ctx w_audit true
                    [w_item 1%N; w_item 2%N; w_item 3%N] s1 = (s1, RFail 409 CDuplicateId 1).
Proof. eexists. split; vm_compute; reflexivity. Qed.
