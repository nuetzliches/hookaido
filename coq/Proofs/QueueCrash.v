(** C01 - crash durability on the SQLite flavour.

    A Store method is a short program of committed micro-steps: the interval-gated retention prune
    (its own transaction) followed by the method's core (one autocommit statement or one
    BEGIN IMMEDIATE .. COMMIT).  Every micro-step is itself a [step] of the model (the prune is what
    [Stats] does to the state; the core is the method under a configuration whose prune is switched
    off), so a timeline - any interleaving of the micro-steps of concurrently served requests on the
    single pooled connection - is a list of (configuration, operation, oracle) triples, a crash is a
    cut of that list (a cut inside a transaction discards it, i.e. cuts before it), and the recovered
    queue is the state after the committed prefix with the in-memory throttles reset. *)
From Coq Require Import List ZArith NArith Bool.
From HK Require Import Model.Queue Model.QueueMon Proofs.QueueBase Proofs.QueueInv Proofs.QueueInvStep
  Proofs.QueueStep Proofs.QueueTrace.
Import ListNotations.
Open Scope Z_scope.

Definition no_prune (c : cfg) : cfg :=
  mkCfg (c_max_depth c) (c_drop_oldest c) (c_ret_age c) 0 (c_deliv_age c) (c_dlq_age c) (c_dlq_depth c) (c_press_items c).

Lemma prune_no_prune c now hint s : prune (no_prune c) now hint s = s.
Proof. unfold prune, prune_due, prune_enabled, no_prune. simpl. reflexivity. Qed.

Lemma sql_make_room_no_prune c fuel need hint l : sql_make_room (no_prune c) fuel need hint l = sql_make_room c fuel need hint l.
Proof.
  revert need l. induction fuel as [|f IH]; intros need l; simpl; [reflexivity|].
  destruct (need <=? c_max_depth c); [reflexivity|]. destruct (sql_victim hint l); [apply IH | reflexivity].
Qed.

Theorem prune_microstep_is_stats c s now o : fst (step Sql c s (Stats now) o) = prune c now (o_gone o) s.
Proof. reflexivity. Qed.

(** a micro-step, with the configuration it runs under *)
Definition mstep := (cfg * op * oracle)%type.

Fixpoint runc (fl : flavour) (s : state) (tl : list mstep) : list (cfg * event) * state :=
  match tl with
  | [] => ([], s)
  | (c, x, o) :: rest =>
      let '(s', r) := step fl c s x o in
      let '(evs, sf) := runc fl s' rest in
      ((c, mkEvent x o r (msgs s) (msgs s')) :: evs, sf)
  end.

Definition after (fl : flavour) (s : state) (tl : list mstep) : state := snd (runc fl s tl).

Lemma after_cons fl s c x o rest : after fl s ((c, x, o) :: rest) = after fl (fst (step fl c s x o)) rest.
Proof.
  unfold after. simpl. destruct (step fl c s x o) as [s' r]. simpl. destruct (runc fl s' rest) as [evs sf]. reflexivity.
Qed.

Lemma after_app fl s t1 t2 : after fl s (t1 ++ t2) = after fl (after fl s t1) t2.
Proof.
  revert s. induction t1 as [|[[c x] o] rest IH]; intros s; [reflexivity|].
  simpl app. rewrite !after_cons. apply IH.
Qed.

(** what a restart does: the rows stay, the in-memory throttles are reset *)
Definition reopen (s : state) : state := mkState (msgs s) (order s) None 0 (issued s).

(** the queue recovered after a crash that cut the timeline after [k] committed micro-steps *)
Definition recovered (tl : list mstep) (k : nat) : state := reopen (after Sql init (firstn k tl)).

Lemma after_inv fl s tl : Inv s -> Inv (after fl s tl).
Proof.
  revert s. induction tl as [|[[c x] o] rest IH]; intros s I; [exact I|].
  rewrite after_cons. apply IH. apply step_inv. exact I.
Qed.

Lemma recovered_inv tl k : Inv (recovered tl k).
Proof. apply (after_inv Sql init (firstn k tl) inv_init). Qed.

Definition enqueued_by (c : cfg) (x : op) (o : oracle) (r : res) (q : msg) : Prop :=
  res_ok r = true /\ exists ies p, assign_ids (enq_list x) (o_genids o) = Some ies /\ In p ies
                                   /\ q = mk_msg (op_now x) (fst p) (snd p).

Theorem nothing_unsent fl tl s m :
  Inv s -> In m (msgs (after fl s tl)) ->
  (exists m0, In m0 (msgs s) /\ same_imm m0 m)
  \/ exists pre c x o post q, tl = pre ++ (c, x, o) :: post
       /\ enqueued_by c x o (snd (step fl c (after fl s pre) x o)) q /\ same_imm q m.
Proof.
  revert s. induction tl as [|[[c x] o] rest IH]; intros s I Hm.
  - left. exists m. split; [exact Hm | apply same_imm_refl].
  - rewrite after_cons in Hm.
    pose proof (step_inv fl c s x o I) as I1.
    destruct (IH _ I1 Hm) as [[m1 [H1 S1]] | [pre [c' [x' [o' [post [q [E [En Sq]]]]]]]]].
    + destruct (step fl c s x o) as [s' r] eqn:Es. simpl in H1, I1.
      destruct (spec_origin c x o r (msgs s) (msgs s') m1 (step_sound fl c s x o s' r I Es) H1) as [[m0 [H0 [S0 _]]] | [Hok [ies [p [EA [Hp Eq]]]]]].
      * left. exists m0. split; [exact H0 | eapply same_imm_trans; eassumption].
      * right. exists [], c, x, o, rest, m1. split; [reflexivity|]. split; [|exact S1].
        unfold after; simpl. rewrite Es. simpl. split; [exact Hok|]. exists ies, p. auto.
    + right. exists ((c, x, o) :: pre), c', x', o', post, q. split; [simpl; rewrite E; reflexivity|].
      split; [|exact Sq]. simpl app. rewrite after_cons. exact En.
Qed.

(** an acknowledged enqueue is durable: once its core micro-step has committed, the message is in
    every later state - hence in the state recovered after any later crash - unless a later committed
    micro-step removed it for a documented reason (ack, DLQ delete, retention, drop_oldest eviction) *)
Theorem committed_message_stays fl s post q :
  Inv s -> In q (msgs s) ->
  (exists m, In m (msgs (after fl s post)) /\ same_imm q m)
  \/ exists pre c x o rest m, post = pre ++ (c, x, o) :: rest /\ In m (msgs (after fl s pre)) /\ same_imm q m
       /\ removal c x (snd (step fl c (after fl s pre) x o)) m.
Proof.
  revert s q. induction post as [|[[c x] o] rest IH]; intros s q I Hq.
  - left. exists q. split; [exact Hq | apply same_imm_refl].
  - pose proof (step_inv fl c s x o I) as I1.
    destruct (step fl c s x o) as [s' r] eqn:Es. simpl in I1.
    destruct (spec_fate c x o r (msgs s) (msgs s') q (inv_nodup _ _ I) (step_sound fl c s x o s' r I Es) Hq) as [[m' [Hm' Ch]] | Rm].
    + assert (Sq : same_imm q m') by (apply (change_same_imm c x r); exact Ch).
      rewrite after_cons, Es. simpl.
      destruct (IH s' m' I1 Hm') as [[m [Hm Sm]] | [pre [c' [x' [o' [rest' [m [E [Hm [Sm Rm]]]]]]]]]].
      * left. exists m. split; [exact Hm | eapply same_imm_trans; eassumption].
      * right. exists ((c, x, o) :: pre), c', x', o', rest', m. split; [simpl; rewrite E; reflexivity|].
        simpl app. rewrite after_cons, Es. simpl. split; [exact Hm|]. split; [eapply same_imm_trans; eassumption | exact Rm].
    + right. exists [], c, x, o, rest, q. split; [reflexivity|]. unfold after at 1 2. simpl.
      split; [exact Hq|]. split; [apply same_imm_refl|]. rewrite Es. exact Rm.
Qed.

Lemma enqueue_stores fl c now single es o s s' r ies p :
  step_enqueue fl c now single es o s = (s', r) -> res_ok r = true -> es <> [] ->
  assign_ids es (o_genids o) = Some ies -> In p ies -> In (mk_msg now (fst p) (snd p)) (msgs s').
Proof.
  intros H Hok Hne EA Hp.
  destruct (step_enqueue_cases _ _ _ _ _ _ _ _ _ H) as [E | _ _ | e _ | ies' l2 _ EA' _ _ _];
    try discriminate Hok; [contradiction|].
  rewrite EA in EA'. injection EA' as <-. simpl. apply in_or_app. right.
  apply in_map_iff. exists p. split; [reflexivity | exact Hp].
Qed.

(** a fan-out request: one enqueue per target, 202 only after the last one committed *)
Fixpoint fanout (c : cfg) (now : Z) (e : enq) (targets : list N) (gen : list N) : list mstep :=
  match targets, gen with
  | t :: ts, g :: gs =>
      (no_prune c, Enqueue now (mkEnq None (e_route e) t (e_recv e) (e_next e) (e_body e) (e_hdr e) (e_trace e)),
       mkOracle [] [] [g] []) :: fanout c now e ts gs
  | _, _ => []
  end.

(** the response of the handler: 202 iff every per-target enqueue succeeded, 503 at the first failure *)
Fixpoint fanout_status (fl : flavour) (s : state) (prog : list mstep) : Z * nat :=   (* status, micro-steps executed *)
  match prog with
  | [] => (202, O)
  | (c, x, o) :: rest =>
      let '(s', r) := step fl c s x o in
      if res_ok r then let '(st, n) := fanout_status fl s' rest in (st, S n) else (503, 1%nat)
  end.
