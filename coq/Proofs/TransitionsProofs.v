(** The state-machine tables extracted from the Go sources (Gen/Transitions.v, regenerated on every
    run by translate/transitions.go) against Model/Queue.v.  The lemmas here are about a row or a
    table as a variable: what a decidable check on it implies for all messages, configurations and
    times.  Properties/C02trans.v evaluates the checks on the generated tables. *)
From Coq Require Import List ZArith NArith Bool Lia.
From HK Require Import Model.Queue Model.QueueMon Model.TransTable Gen.Transitions Proofs.QueueBase Proofs.QueueStep.
Import ListNotations.
Open Scope Z_scope.

Definition cleared (next reason : wval) : list (field * wval) :=
  [(FLeaseId, VClear); (FLeaseUntil, VClear); (FNext, next); (FReason, reason)].

(** what Model/Queue.v does under operation [o] when condition [c] holds: the states accepted, the
    target, the columns written ([pm_lease], [release], [lease_effect], [manage_effect],
    [prune_age_eligible], [queuedb]), in the order the translator prints states and columns;
    [None] where the model has no such row *)
Definition model_row (o : top) (c : tcond) : option (list st * target * list (field * wval)) :=
  match o, c with
  | TDequeue, CAlways =>
      Some ([Queued], TSt Leased, [(FAttempt, VIncr); (FLeaseId, VNewLease); (FLeaseUntil, VNewUntil); (FNext, VNewUntil)])
  | (TSweep | TLeaseExpired _ _), CAlways => Some ([Leased], TSt Queued, cleared VNow VClear)
  | TLease LAck _, CRetention true => Some ([Leased], TSt Delivered, cleared VNow VClear)
  | TLease LAck _, CRetention false => Some ([Leased], TDeleted, [])
  | TLease LNack _, CAlways => Some ([Leased], TSt Queued, cleared VNowPlusDelay VClear)
  | TLease LExtend _, CAlways => Some ([Leased], TKeep, [(FLeaseUntil, VOldUntilPlusBy); (FNext, VOldUntilPlusBy)])
  (* Postgres' extend of a lease whose lease_until is NULL: never the case on a store of the model ([cond_holds]) *)
  | TLease LExtend _, CUntilNull => Some ([Leased], TKeep, [(FLeaseUntil, VNowPlusBy); (FNext, VNowPlusBy)])
  | TLease LDead _, CAlways => Some ([Leased], TSt Dead, cleared VNow VReasonArg)
  | TManage MCancel _, CAlways => Some ([Queued; Leased; Dead], TSt Canceled, cleared VNow VClear)
  | TManage MRequeue _, CAlways => Some ([Dead; Canceled], TSt Queued, cleared VNow VClear)
  | TManage MResume _, CAlways => Some ([Canceled], TSt Queued, cleared VNow VClear)
  | TManage MRequeueDead _, CAlways => Some ([Dead], TSt Queued, cleared VNow VClear)
  | TManage MDeleteDead _, CAlways => Some ([Dead], TDeleted, [])
  | TPruneAge KRetAge ColRecv false, CAlways => Some ([Queued], TDeleted, [])
  | TPruneAge KDlqAge ColRecv false, CAlways => Some ([Dead], TDeleted, [])
  | TPruneAge KDelivAge ColNext false, CAlways => Some ([Delivered], TDeleted, [])
  | TPruneDepth, CAlways => Some ([Dead], TDeleted, [])
  | TEvict _, CAlways => Some ([Queued], TDeleted, [])
  | _, _ => None
  end.

Definition row_body_dec (a b : list st * target * list (field * wval)) : {a = b} + {a <> b}.
Proof. repeat decide equality. Defined.

Definition row_is_model (r : trans) : bool :=
  match model_row (t_op r) (t_cond r) with
  | Some b => if row_body_dec (t_from r, t_to r, t_writes r) b then true else false
  | None => false
  end.

(** a rule, strict or not, that compares the model's column with the model's knob for the state it
    accepts deletes only what the model deletes *)
Lemma age_rule_within_model s k col strict tc t w c now m :
  In (s, k, col) [(Queued, KRetAge, ColRecv); (Dead, KDlqAge, ColRecv); (Delivered, KDelivAge, ColNext)] ->
  prune_row_hits c now (mkTrans (TPruneAge k col strict) tc [s] t w) m = true -> prune_age_eligible c now m = true.
Proof.
  unfold prune_row_hits, accepts, prune_age_eligible. cbn [t_op t_from st_mem existsb].
  rewrite orb_false_r, !andb_true_iff. intros R [[A K] Cmp].
  assert (Le : col_val m col <= now - knob_val c k)
    by (destruct strict; [apply Z.ltb_lt in Cmp; lia | apply Z.leb_le; exact Cmp]).
  destruct R as [E | [E | [E | []]]]; injection E as <- <- <-;
    destruct (m_st m); try discriminate A; simpl in K, Le; rewrite K; apply Z.leb_le; exact Le.
Qed.

(** The effect equations hold by computation: both sides are the same [mkMsg] over the fields of [m].
    Only extend needs the state of the accepted message, which the row keeps and the model writes. *)
Lemma model_row_sound o c from t w : model_row o c = Some (from, t, w) -> row_sound (mkTrans o c from t w).
Proof.
  intros M. unfold row_sound, accepts. cbn [t_op t_cond t_from t_to].
  destruct o as [| |k b|k b|k b|k col strict| |b].
  - destruct c as [|[]|]; try discriminate. injection M as <- <- <-.
    split; [reflexivity|]. split; [intros m; apply orb_false_r|].
    intros now ttl picked lid m _ L. unfold pm_lease. rewrite L. reflexivity.
  - destruct c as [|[]|]; try discriminate. injection M as <- <- <-.
    split; [reflexivity|]. split; [intros m; apply orb_false_r | reflexivity].
  - destruct k; destruct c as [|[]|]; try discriminate.
    all: injection M as <- <- <-; (split; [intros m; apply orb_false_r|]); intros c e m Hc Hm; try reflexivity.
    + simpl in Hc. unfold lease_effect. simpl. destruct (0 <? c_deliv_age c); [reflexivity | discriminate].
    + simpl in Hc. unfold lease_effect. simpl. destruct (0 <? c_deliv_age c); [discriminate | reflexivity].
    + destruct m as [? ? ? s ? ? ? ? ? ? ? ? ?]. destruct s; try discriminate Hm. reflexivity.
    + discriminate Hc.
  - destruct c as [|[]|]; try discriminate. injection M as <- <- <-.
    split; [reflexivity|]. split; [intros m; apply orb_false_r | reflexivity].
  - destruct k; destruct c as [|[]|]; try discriminate.
    all: injection M as <- <- <-; (split; [reflexivity|]); (split; [intros s; destruct s |]); reflexivity.
  - destruct k; destruct col; destruct strict; destruct c as [|[]|]; try discriminate.
    all: injection M as <- <- <-; (split; [reflexivity|]); (split; [reflexivity|]); (split; [reflexivity|]).
    all: intros c now m; apply age_rule_within_model; simpl; auto.
  - destruct c as [|[]|]; try discriminate. injection M as <- <- <-.
    split; [reflexivity|]. split; [reflexivity | intros m; apply orb_false_r].
  - destruct c as [|[]|]; try discriminate. injection M as <- <- <-.
    split; [reflexivity|]. split; [reflexivity | intros m; apply orb_false_r].
Qed.

Lemma row_is_model_sound r : row_is_model r = true -> row_sound r.
Proof.
  unfold row_is_model. destruct r as [o c f t w]. cbn [t_op t_cond t_from t_to t_writes].
  destruct (model_row o c) as [[[from t'] w']|] eqn:M; [|discriminate].
  destruct (row_body_dec (f, t, w) (from, t', w')) as [E|]; [|discriminate].
  injection E as -> -> ->. intros _. apply model_row_sound, M.
Qed.

Lemma table_sound tbl : forallb row_is_model tbl = true -> Forall row_sound tbl.
Proof. rewrite forallb_forall, Forall_forall. intros H r Hr. apply row_is_model_sound, H, Hr. Qed.

(** the three age rules of the model, in the order the translator prints them *)
Definition model_age_rules : list trans :=
  [mkTrans (TPruneAge KDelivAge ColNext false) CAlways [Delivered] TDeleted [];
   mkTrans (TPruneAge KDlqAge ColRecv false) CAlways [Dead] TDeleted [];
   mkTrans (TPruneAge KRetAge ColRecv false) CAlways [Queued] TDeleted []].

Lemma age_rules_exact tbl : filter is_prune_age tbl = model_age_rules -> prune_rules_exact tbl.
Proof.
  intros E c now m. rewrite E. unfold prune_age_eligible, model_age_rules, prune_row_hits, accepts.
  destruct (m_st m); simpl; rewrite ?orb_false_r; reflexivity.
Qed.

(** Where Postgres differs from SQLite, exactly.
    Rows only Postgres has: its dequeue also clears dead_reason; its three age rules compare
    received_at strictly ([<]) - for delivered messages SQLite and memory use next_run_at (the time
    of the ack) with [<=].  Rows only SQLite has: its own dequeue and age rules, and the batch
    enqueue eviction (Postgres has no EnqueueBatch). *)
Definition postgres_only : list trans := [
  mkTrans TDequeue CAlways [Queued] (TSt Leased)
          [(FAttempt, VIncr); (FLeaseId, VNewLease); (FLeaseUntil, VNewUntil); (FNext, VNewUntil); (FReason, VClear)];
  mkTrans (TPruneAge KDelivAge ColRecv true) CAlways [Delivered] TDeleted [];
  mkTrans (TPruneAge KDlqAge ColRecv true) CAlways [Dead] TDeleted [];
  mkTrans (TPruneAge KRetAge ColRecv true) CAlways [Queued] TDeleted []].

Definition sqlite_not_postgres : list trans := [
  mkTrans TDequeue CAlways [Queued] (TSt Leased)
          [(FAttempt, VIncr); (FLeaseId, VNewLease); (FLeaseUntil, VNewUntil); (FNext, VNewUntil)];
  mkTrans (TEvict true) CAlways [Queued] TDeleted [];
  mkTrans (TPruneAge KDelivAge ColNext false) CAlways [Delivered] TDeleted [];
  mkTrans (TPruneAge KDlqAge ColRecv false) CAlways [Dead] TDeleted [];
  mkTrans (TPruneAge KRetAge ColRecv false) CAlways [Queued] TDeleted []].

(** the one row of Postgres that cannot execute on a store that keeps "leased => lease_until set" *)
Lemma postgres_null_until_rows :
  same_table (filter (fun r => tcond_eqb (t_cond r) CUntilNull) postgres_table)
             [mkTrans (TLease LExtend false) CUntilNull [Leased] TKeep [(FLeaseUntil, VNowPlusBy); (FNext, VNowPlusBy)]] = true.
Proof. vm_compute. reflexivity. Qed.

Lemma documented_rows tbl :
  forallb row_documented tbl = true ->
  forall r, In r tbl -> forall s, st_mem s (t_from r) = true -> documented (opclass_of (t_op r)) s (t_to r) = true.
Proof.
  rewrite forallb_forall. intros H r Hin s M. specialize (H r Hin). unfold row_documented in H.
  rewrite forallb_forall in H. assert (A : In s st_all) by (destruct s; simpl; auto 6).
  specialize (H s A). rewrite M in H. exact H.
Qed.

(** the machine of the tables is inside the machine of the C02 theorems ([edge_ok], Proofs/QueueStep.v) *)
Definition op_in_class (x : op) (oc : opclass) : Prop :=
  match oc with
  | OcDequeue => is_dequeue x = true
  | OcRelease => releases x = true
  | OcAck => lease_op_kind x = Some KAck
  | OcNack => exists d, lease_op_kind x = Some (KNack d)
  | OcExtend => exists b, lease_op_kind x = Some (KExtend b)
  | OcDead => exists rs, lease_op_kind x = Some (KDead rs)
  | OcManage k => manage_kind_of x = Some k
  | OcPrune | OcEvict => True
  end.

Lemma documented_within_edge_ok oc s s' x :
  documented oc s (TSt s') = true -> op_in_class x oc -> edge_ok x s s'.
Proof.
  intros D C. unfold edge_ok. right.
  destruct oc as [| | | | | |[]| |]; destruct s, s'; try discriminate D; simpl in C |- *; auto.
  destruct C as [d C]. apply (lease_op_kind_releases x _ C).
Qed.

Lemma set_field_imm e m0 m w m' : set_field e m0 m w = Some m' -> same_imm m m'.
Proof.
  destruct w as [f v]. destruct f; destruct v; simpl; intros H; try discriminate H; injection H as <-; apply upd_same_imm.
Qed.

Lemma apply_writes_imm e m0 ws : forall m m', apply_writes e m0 ws m = Some m' -> same_imm m m'.
Proof.
  induction ws as [|w tl IH]; simpl; intros m m' H.
  - inversion H; subst. apply same_imm_refl.
  - destruct (set_field e m0 m w) as [m1|] eqn:E; [|discriminate].
    apply (same_imm_trans m m1 m'); [apply (set_field_imm e m0 m w m1 E) | apply IH; exact H].
Qed.
