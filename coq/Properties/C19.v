(** C19 - config fmt round-trips: the spelling layer (lexer.go vs the value helpers of
    format.go), for ALL rune sequences.  Theorem statements; each proof is a short derivation
    from the lemmas of Proofs/LexerProofs.v (the counterexample [{foo}] is evaluated in place).

    Scope: these theorems are about single values / lines of values.  The directive layer
    (parser.go recursive descent, the write* functions of format.go, Compile) is NOT modelled
    and NOT a theorem; it is decided by the differential check in props/c19.py.

    A Go string is represented by the sequence of utf8.DecodeRuneInString steps; an item
    >= 0x110000 is one undecodable byte (see Model/Lexer.v). *)
From Coq Require Import List NArith Bool.
From HK Require Import Model.Lexer Model.FormatValue Proofs.LexerProofs.
Import ListNotations.
Open Scope N_scope.

(** quoteString followed by anything lexes as ONE string token with the same text and leaves
    exactly the rest - for every string without undecodable bytes (every string token text
    is such a string, see [C19_string_tokens_valid]; the management API writes JSON strings). *)
Theorem C19_quote_roundtrip : forall s rest,
  Forall (fun r => invalid r = false) s ->
  next_token (quote_string s ++ rest) = LTok (TString s) rest.
Proof. exact quote_roundtrip. Qed.

(** ... and for EVERY Go string: undecodable bytes become U+FFFD (range + WriteRune), nothing else changes,
    and quoting the result again writes the same characters. *)
Theorem C19_quote_roundtrip_any : forall s rest,
  next_token (quote_string s ++ rest) = LTok (TString (map norm_rune s)) rest
  /\ quote_string (map norm_rune s) = quote_string s.
Proof. intros s rest. split; [apply quote_roundtrip_any | apply quote_string_norm]. Qed.

(** Every identifier token the lexer can ever return is a maximal run without blank { } DQUOTE #
    whose first item is decodable, or a {$..} / {env...} / {file...} placeholder. *)
Theorem C19_ident_shapes : forall s t rest,
  next_token s = LTok (TIdent t) rest ->
  (exists r tl, t = r :: tl /\ invalid r = false /\ Forall (fun x => is_ident_stop x = false) t)
  \/ (exists body, t = 123 :: body ++ [125] /\ ph_prefix t = true /\
        Forall (fun x => invalid x = false /\ is_space x = false /\ x <> 123 /\ x <> 125) body).
Proof. exact ident_shapes. Qed.

Theorem C19_string_tokens_valid : forall s t rest,
  next_token s = LTok (TString t) rest -> Forall (fun r => invalid r = false) t.
Proof. intros s t rest H. exact (proj1 (next_token_spec _ _ _ H)). Qed.

(** An identifier-shaped text followed by a delimiter (end of input, blank, brace, quote, #)
    lexes back as ONE identifier token with the same text. *)
Theorem C19_unquoted_roundtrip : forall t rest,
  ident_shaped t -> delim_ok rest -> next_token (t ++ rest) = LTok (TIdent t) rest.
Proof. exact unquoted_roundtrip. Qed.

(** The formatter writes every identifier-shaped value unquoted, unchanged. *)
Theorem C19_ident_written_unquoted : forall t, ident_shaped t -> format_value t false = t.
Proof. intros t H. unfold format_value. rewrite (ident_shaped_safe t H). reflexivity. Qed.

(** Token-level fixpoint: a value token (text, quotedness) that came out of the lexer, written
    by formatValue and lexed again, is the same token - same text, same quotedness - so
    formatting once more writes the same characters. *)
Theorem C19_format_value_fixpoint : forall src t q rest0 rest,
  next_token src = LTok (value_token t q) rest0 -> delim_ok rest ->
  next_token (format_value t q ++ rest) = LTok (value_token t q) rest.
Proof. exact format_value_fixpoint. Qed.

(** Same for route paths (string token, or identifier token starting with '/'); and the first
    character written keeps the parser's top-level dispatch (DQUOTE or '/'). *)
Theorem C19_route_path_fixpoint : forall t q rest,
  parser_path t q -> delim_ok rest ->
  next_token (format_route_path t q ++ rest) = LTok (value_token t q) rest
  /\ exists tl, format_route_path t q = (if q then 34 else 47) :: tl.
Proof. intros t q rest H Hd. split; [apply route_path_roundtrip; assumption | apply route_path_head; exact H]. Qed.

(** An arbitrary AST value (not from the lexer) that ends up quoted is stable from the first
    output on. *)
Theorem C19_quoted_stable : forall s q rest,
  (q = true \/ is_unquoted_value_safe s = false) ->
  next_token (format_value s q ++ rest) = LTok (TString (map norm_rune s)) rest /\
  format_value (map norm_rune s) true = format_value s q.
Proof.
  intros s q rest H. assert (E : format_value s q = quote_string s).
  { unfold format_value. destruct q; [reflexivity|]. destruct H as [H|H]; [discriminate|]. rewrite H. reflexivity. }
  rewrite E. split; [apply quote_roundtrip_any | apply quote_string_norm].
Qed.

(** Keyword safety: a formatted parser value lexes to the identifier [kw] iff it already was the
    unquoted identifier [kw]; so the rule that ends a multi-value directive
    (kind == tokIdent && isXDirective(text)) fires on exactly the same values after fmt. *)
Theorem C19_keyword_safety : forall t q rest kw rest',
  parser_value t q -> delim_ok rest ->
  (next_token (format_value t q ++ rest) = LTok (TIdent kw) rest' <-> q = false /\ t = kw /\ rest' = rest).
Proof. exact keyword_safety. Qed.

Theorem C19_quoted_never_ident : forall s rest kw rest',
  next_token (format_value s true ++ rest) <> LTok (TIdent kw) rest'.
Proof. intros s rest kw rest'. unfold format_value. rewrite quote_roundtrip_any. discriminate. Qed.

(** A whole line of values, each preceded by one blank and ended by a newline, lexes back to
    exactly the value tokens it was written from. *)
Theorem C19_line_roundtrip : forall vs,
  Forall (fun v => parser_value (fst v) (snd v)) vs ->
  lexes_to (format_line vs) (map (fun v => value_token (fst v) (snd v)) vs).
Proof. exact line_roundtrip. Qed.

(** The executable tokenizer used by the correspondence is the relation above and never stops
    for lack of fuel. *)
Theorem C19_tokenize_total : forall s,
  snd (tokenize s) <> EndFuel /\ (forall ts, tokenize s = (ts, EndEOF) -> lexes_to s ts).
Proof. intros s. split; [apply tokenize_never_out_of_fuel | apply tokenize_sound]. Qed.

(** NOT true, and why it does not matter for the parser: isUnquotedValueSafe accepts values
    that do not lex back as one identifier ({foo}: LBrace ident RBrace).  An unquoted value
    round-trips iff it is identifier-shaped; the offenders are brace-led or start with an
    undecodable byte.  The parser's unquoted values are identifier tokens
    ([C19_ident_shapes]) and the management writers set Quoted = true. *)
Theorem C19_safe_unquoted_refuted :
  exists s, is_unquoted_value_safe s = true /\ ~ ident_shaped s /\
            forall rest, next_token (format_value s false ++ rest) = LTok TLBrace (tl s ++ rest).
Proof.
  exists [123; 102; 111; 111; 125]. split; [reflexivity|]. split; [|reflexivity].
  intros [[r [tl [E [Hi Hf]]]] | [body [E [Hp Hc]]]].
  - injection E as <- <-. apply Forall_inv in Hf. discriminate Hf.
  - discriminate Hp.
Qed.

Theorem C19_unquoted_roundtrip_iff : forall s rest,
  delim_ok rest -> (next_token (s ++ rest) = LTok (TIdent s) rest <-> ident_shaped s).
Proof. intros s rest Hd. split; [apply ident_shapes | intros H; apply unquoted_roundtrip; assumption]. Qed.

Theorem C19_safe_not_shaped_cases : forall s,
  is_unquoted_value_safe s = true -> ~ ident_shaped s ->
  starts_with 123 s = true \/ exists r tl, s = r :: tl /\ invalid r = true.
Proof.
  intros [|r tl] Hs Hn; [discriminate|]. unfold is_unquoted_value_safe in Hs.
  destruct (starts_with 123 (r :: tl)); [left; reflexivity|]. cbn [andb] in Hs.
  right. exists r, tl. split; [reflexivity|].
  destruct (invalid r) eqn:Ei; [reflexivity|]. exfalso. apply Hn. left.
  exists r, tl. repeat split; [exact Ei|]. apply forallb_safe_stop. exact Hs.
Qed.

Print Assumptions C19_quote_roundtrip.
Print Assumptions C19_quote_roundtrip_any.
Print Assumptions C19_ident_shapes.
Print Assumptions C19_string_tokens_valid.
Print Assumptions C19_unquoted_roundtrip.
Print Assumptions C19_ident_written_unquoted.
Print Assumptions C19_format_value_fixpoint.
Print Assumptions C19_route_path_fixpoint.
Print Assumptions C19_quoted_stable.
Print Assumptions C19_keyword_safety.
Print Assumptions C19_quoted_never_ident.
Print Assumptions C19_line_roundtrip.
Print Assumptions C19_tokenize_total.
Print Assumptions C19_safe_unquoted_refuted.
Print Assumptions C19_unquoted_roundtrip_iff.
Print Assumptions C19_safe_not_shaped_cases.
