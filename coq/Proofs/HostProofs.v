(** Lemmas about Model/HostMatch.v (matchHosts). *)
From Coq Require Import List NArith Bool.
From HK Require Import Model.RBytes Model.HostMatch Proofs.RBytesProofs.
Import ListNotations.
Open Scope N_scope.

(** when one allowed-host entry [a] accepts the normalised request host [h] *)
Definition host_pattern_matches (a h : bytes) : Prop :=
  a = star \/ a = h \/
  (exists d, a = star_dot ++ d /\ d <> [] /\ exists x, h = x ++ 46 :: d).

(** What the loop of matchHosts does with one entry [a]: the "*.d" rule, and the whole test. *)
Definition wildcardb (h a : bytes) : bool :=
  prefixb star_dot a
  && negb (is_empty (trim_prefix star_dot a) || beq h (trim_prefix star_dot a))
  && suffixb (46 :: trim_prefix star_dot a) h.

Definition host_entryb (h a : bytes) : bool := beq a star || beq h a || wildcardb h a.

Lemma match_hosts_loop_existsb : forall h al, match_hosts_loop h al = existsb (host_entryb h) al.
Proof.
  intros h al. induction al as [|a t IH]; cbn [match_hosts_loop existsb]; [reflexivity|].
  rewrite IH. unfold host_entryb, wildcardb.
  destruct (beq a star); [reflexivity|].
  destruct (beq h a); [reflexivity|].
  destruct (prefixb star_dot a); [|reflexivity].
  destruct (is_empty (trim_prefix star_dot a) || beq h (trim_prefix star_dot a)); [reflexivity|].
  destruct (suffixb (46 :: trim_prefix star_dot a) h); reflexivity.
Qed.

(** The test [h <> d] of the rule leaves no trace: a host ending in "." ++ d is longer than d. *)
Lemma wildcardb_spec : forall h a,
  wildcardb h a = true <-> exists d, a = star_dot ++ d /\ d <> [] /\ exists x, h = x ++ 46 :: d.
Proof.
  intros h a. unfold wildcardb.
  rewrite !andb_true_iff, negb_true_iff, orb_false_iff, prefixb_spec. split.
  - intros [[[d Hd] [Hne _]] Hs]. subst a. rewrite trim_prefix_app in Hne, Hs.
    exists d. split; [reflexivity|]. split; [apply is_empty_false; exact Hne | apply suffixb_spec; exact Hs].
  - intros [d [Ha [Hne [x Hx]]]]. subst a h. rewrite trim_prefix_app.
    split; [split; [exists d; reflexivity | split]|].
    + apply is_empty_false. exact Hne.
    + apply beq_neq. intro E. exact (app_cons_not_self _ x d 46 (eq_sym E)).
    + apply suffixb_spec. exists x. reflexivity.
Qed.

Lemma host_entryb_spec : forall h a, host_entryb h a = true <-> host_pattern_matches a h.
Proof.
  intros h a. unfold host_entryb, host_pattern_matches.
  rewrite !orb_true_iff, !beq_eq, wildcardb_spec.
  split.
  - intros [[H|H]|H]; auto.
  - intros [H|[H|H]]; auto.
Qed.

Lemma match_hosts_loop_spec : forall h al,
  match_hosts_loop h al = true <-> exists a, In a al /\ host_pattern_matches a h.
Proof.
  intros h al. rewrite match_hosts_loop_existsb, existsb_exists.
  setoid_rewrite host_entryb_spec. reflexivity.
Qed.

Lemma match_hosts_spec : forall h al,
  match_hosts h al = true <->
  al = [] \/ (h <> [] /\ exists a, In a al /\ host_pattern_matches a h).
Proof.
  intros h al. unfold match_hosts. destruct al as [|a t].
  - split; [intros _; left; reflexivity | reflexivity].
  - destruct (is_empty h) eqn:E.
    + apply is_empty_nil in E. split; [discriminate|]. intros [H|[H _]]; [discriminate | contradiction].
    + apply is_empty_false in E. rewrite match_hosts_loop_spec. split.
      * intro H. right. split; assumption.
      * intros [H|[_ H]]; [discriminate | exact H].
Qed.

(** "*.d" admits proper sub-domains only: the host ends with "." ++ d, so it is
    strictly longer than d; d itself and look-alikes (no dot before d) are refused.
    (The literal host "*.d" equals the pattern and matches by the exact-match rule.) *)
Lemma host_wildcard_proper : forall h d,
  match_hosts h [star_dot ++ d] = true <->
  h <> [] /\ (h = star_dot ++ d \/ (d <> [] /\ exists x, h = x ++ 46 :: d)).
Proof.
  intros h d. rewrite match_hosts_spec. split.
  - intros [H | [Hne [a [[Ha|[]] Hm]]]]; [discriminate|]. subst a. split; [exact Hne|].
    destruct Hm as [Hm | [Hm | [d' [Hd' [Hn Hx]]]]].
    + discriminate.
    + left. congruence.
    + apply app_inv_head in Hd'. subst d'. right. split; assumption.
  - intros [Hne H]. right. split; [exact Hne|]. exists (star_dot ++ d). split; [left; reflexivity|].
    destruct H as [H | [Hn Hx]].
    + right. left. congruence.
    + right. right. exists d. split; [reflexivity|]. split; assumption.
Qed.

(** so every accepted host, the literal one included, ends with "." ++ d *)
Lemma host_wildcard_dot_suffix : forall h d,
  match_hosts h [star_dot ++ d] = true -> exists y, h = y ++ 46 :: d.
Proof.
  intros h d H. apply host_wildcard_proper in H. destruct H as [_ [H | [_ H]]].
  - exists [42]. exact H.
  - exact H.
Qed.
