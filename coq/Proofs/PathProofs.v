(** Lemmas about Model/PathMatch.v (MatchPath) and Model/PathClean.v (path.Clean). *)
From Coq Require Import List NArith Bool Lia Arith.
From HK Require Import Model.RBytes Model.PathClean Model.PathMatch Proofs.RBytesProofs.
Import ListNotations.
Open Scope N_scope.

(** the last test of MatchPath: a proper prefix that ends at a segment boundary *)
Lemma boundary_prefix_spec : forall p r,
  prefixb r p && Nat.ltb (List.length r) (List.length p) && (nth (List.length r) p 0 =? 47) = true <->
  exists t, p = r ++ 47 :: t.
Proof.
  intros p r. rewrite !andb_true_iff, prefixb_spec, Nat.ltb_lt, N.eqb_eq. split.
  - intros [[[t Ht] Hlt] Hn]. subst p. destruct t as [|x t].
    + rewrite app_nil_r in Hlt. lia.
    + rewrite nth_middle in Hn. subst x. exists t. reflexivity.
  - intros [t Ht]. subst p. rewrite nth_middle, app_length. simpl.
    split; [split; [exists (47 :: t); reflexivity | lia] | reflexivity].
Qed.

Lemma match_path_spec : forall p r,
  match_path p r = true <->
  r <> [] /\ (r = [47] \/ p = r \/ exists t, p = r ++ 47 :: t).
Proof.
  intros p r. unfold match_path.
  destruct (is_empty r) eqn:Er.
  { apply is_empty_nil in Er. split; [discriminate | intros [H _]; contradiction]. }
  apply is_empty_false in Er.
  destruct (beq r [47]) eqn:E1.
  { apply beq_eq in E1. split; [intros _; split; [exact Er | left; exact E1] | reflexivity]. }
  destruct (beq p r) eqn:E2.
  { apply beq_eq in E2. split; [intros _; split; [exact Er | right; left; exact E2] | reflexivity]. }
  apply beq_neq in E1, E2. rewrite boundary_prefix_spec. split.
  - intro H. split; [exact Er | right; right; exact H].
  - intros [_ [H | [H | H]]]; [contradiction | contradiction | exact H].
Qed.

Lemma match_path_root : forall p, match_path p [47] = true.
Proof. intro p. apply match_path_spec. split; [discriminate | left; reflexivity]. Qed.

Lemma dot_no_slash : ~ In slash dot.
Proof. unfold slash, dot. intros [H|[]]. discriminate. Qed.
Lemma dotdot_no_slash : ~ In slash dotdot.
Proof. unfold slash, dotdot. intros [H|[H|[]]]; discriminate. Qed.

(** An element the loop leaves on the stack: never empty or ".", slash-free, and ".."
    only when the path is not rooted. *)
Definition kept (rooted : bool) (s : bytes) : Prop :=
  s <> [] /\ s <> dot /\ (rooted = true -> s <> dotdot) /\ ~ In slash s.

Lemma kept_rooted_good : forall s, kept true s -> good_seg s.
Proof. intros s [H1 [H2 [H3 H4]]]. repeat split; auto. Qed.

(** The invariant of the loop, rooted or not: the stack holds kept elements only, and
    running the loop over them again, bottom first, rebuilds the stack.  The second half
    is what makes [clean] idempotent. *)
Definition stable (rooted : bool) (st : list bytes) : Prop :=
  Forall (kept rooted) st /\ fold_left (clean_step rooted) (rev st) [] = st.

Lemma clean_step_skip : forall rooted st s, is_empty s || beq s dot = true -> clean_step rooted st s = st.
Proof. intros rooted st s H. unfold clean_step. rewrite H. reflexivity. Qed.

Lemma clean_step_dotdot : forall rooted st,
  clean_step rooted st dotdot =
  if match st with top :: _ => negb (beq top dotdot) | [] => false end then tl st
  else if rooted then st else dotdot :: st.
Proof. reflexivity. Qed.

Lemma clean_step_push : forall rooted st s,
  s <> [] -> s <> dot -> s <> dotdot -> clean_step rooted st s = s :: st.
Proof.
  intros rooted st s H1 H2 H3. unfold clean_step.
  apply is_empty_false in H1. apply beq_neq in H2, H3. rewrite H1, H2, H3. reflexivity.
Qed.

Lemma stable_push : forall rooted st s,
  stable rooted st -> kept rooted s -> clean_step rooted st s = s :: st -> stable rooted (s :: st).
Proof.
  intros rooted st s [Hk Hr] Hs Hstep. split; [constructor; assumption|].
  simpl. rewrite fold_left_app, Hr. exact Hstep.
Qed.

Lemma stable_pop : forall rooted top rest,
  stable rooted (top :: rest) -> top <> dotdot -> stable rooted rest.
Proof.
  intros rooted top rest [Hk Hr] Ht. inversion Hk as [|? ? [H1 [H2 _]] Hk']; subst.
  split; [exact Hk'|].
  simpl in Hr. rewrite fold_left_app in Hr. simpl in Hr.
  rewrite clean_step_push in Hr by assumption. injection Hr as Hr. exact Hr.
Qed.

Lemma clean_step_stable : forall rooted st seg,
  ~ In slash seg -> stable rooted st -> stable rooted (clean_step rooted st seg).
Proof.
  intros rooted st seg Hs Hst.
  destruct (is_empty seg || beq seg dot) eqn:E1; [rewrite clean_step_skip by exact E1; exact Hst|].
  apply orb_false_iff in E1. destruct E1 as [E1 E2].
  apply is_empty_false in E1. apply beq_neq in E2.
  destruct (beq seg dotdot) eqn:E3.
  - apply beq_eq in E3. subst seg. rewrite clean_step_dotdot.
    destruct (match st with top :: _ => negb (beq top dotdot) | [] => false end) eqn:Eb.
    + destruct st as [|top rest]; [discriminate|].
      apply negb_true_iff, beq_neq in Eb. exact (stable_pop rooted top rest Hst Eb).
    + destruct rooted; [exact Hst|]. apply stable_push; [exact Hst | |].
      * repeat split; [discriminate | discriminate | discriminate | exact dotdot_no_slash].
      * rewrite clean_step_dotdot, Eb. reflexivity.
  - apply beq_neq in E3. rewrite clean_step_push by assumption. apply stable_push; [exact Hst | |].
    + repeat split; [exact E1 | exact E2 | intros _; exact E3 | exact Hs].
    + apply clean_step_push; assumption.
Qed.

Lemma clean_stack_stable : forall rooted p, stable rooted (clean_stack rooted p).
Proof.
  intros rooted p. unfold clean_stack.
  assert (G : forall segs st, (forall s, In s segs -> ~ In slash s) -> stable rooted st ->
              stable rooted (fold_left (clean_step rooted) segs st)).
  { induction segs as [|s segs IH]; intros st Hs Hst; [exact Hst|]. simpl. apply IH.
    - intros s' H'. apply Hs. right. exact H'.
    - apply clean_step_stable; [apply Hs; left; reflexivity | exact Hst]. }
  apply G; [exact (split_on_no_sep slash p) | split; [constructor | reflexivity]].
Qed.

Lemma clean_stack_join : forall rooted st,
  stable rooted st -> clean_stack rooted (join [slash] (rev st)) = st.
Proof.
  intros rooted st [Hk Hr]. unfold clean_stack. revert Hr.
  destruct (rev st) as [|a l] eqn:E; intro Hr; [exact Hr|].
  rewrite split_join; [exact Hr | discriminate|].
  intros s Hs. rewrite <- E in Hs. apply in_rev in Hs.
  rewrite Forall_forall in Hk. apply (Hk s Hs).
Qed.

Lemma clean_stack_leading_slash : forall rooted s, clean_stack rooted (slash :: s) = clean_stack rooted s.
Proof. intros rooted s. unfold clean_stack. rewrite split_on_sep. reflexivity. Qed.

Lemma clean_rooted : forall p, is_rooted p = true -> is_rooted (clean p) = true.
Proof.
  intros p H. destruct p as [|c p]; [discriminate|]. unfold clean. rewrite H. reflexivity.
Qed.

Lemma join_cons_head : forall (sep : bytes) x a l, exists t, join sep (@cons bytes (x :: a) l) = x :: t.
Proof. intros sep x a l. destruct l; simpl; eauto. Qed.

Lemma clean_printed : forall rooted st, stable rooted st ->
  let out := join [slash] (rev st) in
  let printed := if rooted then slash :: out else if is_empty out then dot else out in
  clean printed = printed.
Proof.
  intros rooted st Hst. cbv zeta. destruct rooted.
  - (* the leading empty element is skipped, the rest is the printed stack *)
    change (clean (slash :: join [slash] (rev st)))
      with (slash :: join [slash] (rev (clean_stack true (slash :: join [slash] (rev st))))).
    rewrite clean_stack_leading_slash, clean_stack_join by exact Hst. reflexivity.
  - (* an unrooted stack is printed as ".", or begins with a byte that is not a slash *)
    destruct (rev st) as [|a l] eqn:E; [reflexivity|].
    assert (Ha : kept false a).
    { destruct Hst as [Hk _]. rewrite Forall_forall in Hk. apply Hk, in_rev. rewrite E. left. reflexivity. }
    destruct a as [|x a]; [destruct Ha as [Ha _]; contradiction|].
    assert (Hx : x <> slash).
    { intro Hx. destruct Ha as [_ [_ [_ Ha]]]. apply Ha. left. exact Hx. }
    destruct (join_cons_head [slash] x a l) as [t Ej]. rewrite Ej. cbn [is_empty].
    unfold clean, is_rooted. apply N.eqb_neq in Hx. rewrite Hx.
    rewrite <- Ej, <- E, clean_stack_join by exact Hst. rewrite E, Ej. reflexivity.
Qed.

Lemma clean_idempotent : forall p, clean (clean p) = clean p.
Proof.
  intro p. destruct p as [|c p]; [reflexivity|].
  exact (clean_printed _ _ (clean_stack_stable (is_rooted (c :: p)) (c :: p))).
Qed.
