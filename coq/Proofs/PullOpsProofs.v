(** The pull layer (Model/PullOps.v) over the store.  A lease call is answered from the recent-ops cache, fails
    because the store is down, or is decided by the store under the fencing rule of Proofs/QueueFence.v; along a
    history of calls every cached answer has an earlier twin that the store accepted. *)
From Coq Require Import List ZArith NArith Bool Lia Permutation.
From HK Require Import Gen.Consts Model.Queue Model.QueueMon Model.PullOps Proofs.ListFacts Proofs.QueueBase
  Proofs.QueueInv Proofs.QueueInvStep Proofs.QueueStep Proofs.QueueFence.
Import ListNotations.
Open Scope Z_scope.

(** sub-lists: what pruning, removing and trimming leave of the cache *)
Inductive sub {A : Type} : list A -> list A -> Prop :=
| sub_nil : sub [] []
| sub_skip x a b : sub a b -> sub a (x :: b)
| sub_keep x a b : sub a b -> sub (x :: a) (x :: b).

Lemma sub_refl {A} (a : list A) : sub a a.
Proof. induction a; constructor; assumption. Qed.

Lemma sub_trans {A} (a b c : list A) : sub a b -> sub b c -> sub a c.
Proof.
  intros H1 H2. revert a H1. induction H2; intros a' H1.
  - exact H1.
  - constructor. apply IHsub. exact H1.
  - inversion H1; subst; constructor; apply IHsub; assumption.
Qed.

Lemma sub_In {A} (a b : list A) x : sub a b -> In x a -> In x b.
Proof.
  induction 1; intros H0; [exact H0 | right; auto |].
  destruct H0 as [H0 | H0]; [left; exact H0 | right; auto].
Qed.

Lemma sub_length {A} (a b : list A) : sub a b -> (length a <= length b)%nat.
Proof. induction 1; simpl; lia. Qed.

Lemma sub_map {A B} (f : A -> B) a b : sub a b -> sub (map f a) (map f b).
Proof. induction 1; simpl; constructor; assumption. Qed.

Lemma sub_NoDup {A} (a b : list A) : sub a b -> NoDup b -> NoDup a.
Proof.
  induction 1; intros ND; [exact ND | |]; inversion ND; subst; [auto|].
  constructor; [|auto]. intros Hin. apply H2. apply (sub_In a b); assumption.
Qed.

Lemma filter_sub {A} f (l : list A) : sub (filter f l) l.
Proof. induction l as [|x tl IH]; simpl; [constructor|]. destruct (f x); constructor; exact IH. Qed.

Lemma skipn_sub {A} n (l : list A) : sub (skipn n l) l.
Proof.
  revert l. induction n as [|n IH]; intros l; simpl; [apply sub_refl|].
  destruct l as [|x tl]; constructor; apply IH.
Qed.

Lemma filter_length_lt {A} f (l : list A) x : In x l -> f x = false -> (length (filter f l) < length l)%nat.
Proof.
  induction l as [|y tl IH]; intros Hin Hf; [destruct Hin|]. simpl. destruct Hin as [Hin | Hin].
  - subst y. rewrite Hf. pose proof (sub_length _ _ (filter_sub f tl)). lia.
  - specialize (IH Hin Hf). destruct (f y); simpl; lia.
Qed.

Definition ckey (e : centry) : N * opk := (ce_lease e, ce_op e).
Definition ckeys (ch : cache) : list (N * opk) := map ckey ch.

Lemma cache_prune_sub cnow ch : sub (cache_prune cnow ch) ch.
Proof.
  induction ch as [|e tl IH]; simpl; [constructor|].
  destruct (cnow <? ce_exp e); [apply sub_refl | constructor; exact IH].
Qed.

Lemma cache_prune_keeps cnow ch e : In e ch -> cnow < ce_exp e -> In e (cache_prune cnow ch).
Proof.
  induction ch as [|x tl IH]; intros Hin Hlt; [destruct Hin|]. simpl.
  destruct (cnow <? ce_exp x) eqn:E; [exact Hin|]. destruct Hin as [Hin | Hin]; [|auto].
  subst x. apply Z.ltb_ge in E. lia.
Qed.

Lemma opk_eqb_eq a b : opk_eqb a b = true <-> a = b.
Proof. destruct a, b; simpl; split; intros H; try reflexivity; discriminate. Qed.

Lemma key_eqb_true l k e : key_eqb l k e = true <-> ckey e = (l, k).
Proof.
  unfold key_eqb, ckey. rewrite andb_true_iff, N.eqb_eq, opk_eqb_eq. split.
  - intros [A B]. rewrite A, B. reflexivity.
  - intros H. inversion H. split; reflexivity.
Qed.

Lemma cache_find_Some l k ch e : cache_find l k ch = Some e -> In e ch /\ ckey e = (l, k).
Proof. intros H. apply find_some in H. rewrite key_eqb_true in H. exact H. Qed.

Lemma cache_find_None l k ch : cache_find l k ch = None -> ~ In (l, k) (ckeys ch).
Proof.
  intros H Hin. apply in_map_iff in Hin. destruct Hin as [e [Ek He]].
  apply key_eqb_true in Ek. rewrite (find_none _ _ H e He) in Ek. discriminate.
Qed.

Lemma cache_remove_no_key l k ch : ~ In (l, k) (ckeys (cache_remove l k ch)).
Proof.
  intros Hin. apply in_map_iff in Hin. destruct Hin as [e [Ek He]].
  apply filter_In in He. destruct He as [_ Hf]. apply key_eqb_true in Ek. rewrite Ek in Hf. discriminate.
Qed.

(** what a hit of isRecentlyCompletedLease stands for *)
Definition live_entry (pc : pcfg) (cnow : Z) (ch : cache) (p : N * opk) : Prop :=
  cache_off pc = false /\ exists e, In e ch /\ ckey e = p /\ cnow < ce_exp e.

Lemma live_entry_sub pc cnow a b p : sub a b -> live_entry pc cnow a p -> live_entry pc cnow b p.
Proof.
  intros S [Off [e [A B]]]. split; [exact Off|]. exists e. split; [apply (sub_In a b e S A) | exact B].
Qed.

Lemma cache_lookup_sub pc cnow l k ch : sub (fst (cache_lookup pc cnow l k ch)) ch.
Proof.
  unfold cache_lookup. destruct (cache_off pc); [apply sub_refl|].
  destruct (cache_find l k (cache_prune cnow ch)) as [e|]; [|apply cache_prune_sub].
  destruct (cnow <? ce_exp e); simpl; [apply cache_prune_sub|].
  apply (sub_trans _ (cache_prune cnow ch)); [apply filter_sub | apply cache_prune_sub].
Qed.

Lemma cache_lookup_hit pc cnow l k ch : snd (cache_lookup pc cnow l k ch) = true -> live_entry pc cnow ch (l, k).
Proof.
  unfold cache_lookup. destruct (cache_off pc) eqn:Off; [discriminate|].
  destruct (cache_find l k (cache_prune cnow ch)) as [e|] eqn:F; [|discriminate].
  destruct (cnow <? ce_exp e) eqn:E; [|discriminate]. intros _. split; [exact Off|].
  apply cache_find_Some in F. destruct F as [A B]. exists e. split; [|split; [exact B | apply Z.ltb_lt; exact E]].
  apply (sub_In _ _ e (cache_prune_sub cnow ch)). exact A.
Qed.

Lemma cache_lookup_finds pc cnow l k ch :
  NoDup (ckeys ch) -> live_entry pc cnow ch (l, k) -> snd (cache_lookup pc cnow l k ch) = true.
Proof.
  intros ND [Off [e [Hin [Ek Hlt]]]]. unfold cache_lookup. rewrite Off.
  pose proof (cache_prune_keeps cnow ch e Hin Hlt) as Hp.
  destruct (cache_find l k (cache_prune cnow ch)) as [e'|] eqn:F.
  - apply cache_find_Some in F. destruct F as [A B].
    assert (e' = e).
    { apply (NoDup_map_inj ckey (cache_prune cnow ch)); [|exact A | exact Hp | congruence].
      apply (sub_NoDup _ _ (sub_map ckey _ _ (cache_prune_sub cnow ch)) ND). }
    subst e'. apply Z.ltb_lt in Hlt. rewrite Hlt. reflexivity.
  - exfalso. apply (cache_find_None l k _ F). apply in_map_iff. exists e. split; assumption.
Qed.

Lemma cache_off_false pc : cache_off pc = false -> 0 < p_recent_ttl pc /\ 0 < p_recent_cap pc.
Proof.
  unfold cache_off. intros H. apply orb_false_iff in H. destruct H as [A B].
  apply Z.leb_gt in A. apply Z.leb_gt in B. split; assumption.
Qed.

(** the invariant of the cache, for any property [J] of its entries (for a history: [stored_by]) *)
Record cache_ok (pc : pcfg) (J : centry -> Prop) (ch : cache) : Prop := mkOk {
  ok_all : forall e, In e ch -> J e;
  ok_nodup : NoDup (ckeys ch);
  ok_len : (length ch <= Z.to_nat (p_recent_cap pc))%nat;
  ok_off : cache_off pc = true -> ch = [] }.

Lemma cache_ok_sub pc (J : centry -> Prop) a b : sub a b -> cache_ok pc J b -> cache_ok pc J a.
Proof.
  intros S [HJ ND Len Off]. constructor.
  - intros e He. apply HJ. apply (sub_In a b e S He).
  - apply (sub_NoDup _ _ (sub_map ckey a b S) ND).
  - pose proof (sub_length a b S). lia.
  - intros O. rewrite (Off O) in S. inversion S. reflexivity.
Qed.

Lemma cache_ok_remember pc (J : centry -> Prop) cnow l k ch :
  J (mkCE l k (cnow + p_recent_ttl pc)) -> cache_ok pc J ch -> cache_ok pc J (cache_remember pc cnow l k ch).
Proof.
  intros Je Ok. unfold cache_remember. destruct (cache_off pc) eqn:Off; [exact Ok|].
  destruct (cache_ok_sub pc J _ ch (cache_prune_sub cnow ch) Ok) as [HJ ND Len _].
  destruct (cache_find l k (cache_prune cnow ch)) as [e|] eqn:F.
  - (* the key is there: its entry is taken out and the new one put at the back *)
    constructor.
    + intros e' H. apply in_app_or in H. destruct H as [H | [H | []]]; [|subst e'; exact Je].
      apply HJ. apply (sub_In _ _ e' (filter_sub _ _) H).
    + unfold ckeys. rewrite map_app. apply NoDup_snoc; [|apply cache_remove_no_key].
      apply (sub_NoDup _ _ (sub_map ckey _ _ (filter_sub _ _)) ND).
    + apply find_some in F. destruct F as [A B]. rewrite app_length. simpl.
      pose proof (filter_length_lt (fun x => negb (key_eqb l k x)) _ e A (f_equal negb B)) as Hlt.
      unfold cache_remove. lia.
    + congruence.
  - (* a new key: appended, then entries are dropped from the front down to the capacity *)
    constructor.
    + intros e' H. apply (sub_In _ _ e' (skipn_sub _ _)) in H.
      apply in_app_or in H. destruct H as [H | [H | []]]; [apply HJ; exact H | subst e'; exact Je].
    + apply (sub_NoDup _ _ (sub_map ckey _ _ (skipn_sub _ _))). rewrite map_app. apply NoDup_snoc; [exact ND|].
      apply (cache_find_None l k _ F).
    + unfold cache_trim. rewrite skipn_length. lia.
    + congruence.
Qed.

Lemma cache_ok_remember_all pc (J : centry -> Prop) cnow st : forall ch,
  (forall p, In p st -> J (mkCE (fst p) (snd p) (cnow + p_recent_ttl pc))) ->
  cache_ok pc J ch -> cache_ok pc J (remember_all pc cnow st ch).
Proof.
  unfold remember_all. induction st as [|p tl IH]; intros ch HJ Ok; simpl; [exact Ok|].
  apply IH; [intros q Hq; apply HJ; right; exact Hq|].
  apply cache_ok_remember; [apply HJ; left; reflexivity | exact Ok].
Qed.

(** partitionRecentlyCompletedLeases: the ids are split into those the cache answers and the rest *)
Lemma partition_recent_spec pc cnow k ls : forall ch,
  let '(ch', pending, completed) := partition_recent pc cnow k ls ch in
  sub ch' ch /\ Permutation ls (pending ++ completed)
  /\ forall l, In l completed -> live_entry pc cnow ch (l, k).
Proof.
  induction ls as [|l tl IH]; intros ch; simpl.
  - split; [apply sub_refl|]. split; [constructor | intros l []].
  - pose proof (cache_lookup_sub pc cnow l k ch) as S1. pose proof (cache_lookup_hit pc cnow l k ch) as Hh.
    destruct (cache_lookup pc cnow l k ch) as [ch1 hit]. simpl in S1, Hh.
    specialize (IH ch1). destruct (partition_recent pc cnow k tl ch1) as [[ch2 pend] comp].
    destruct IH as [S2 [P Hit]].
    assert (Hit' : forall x, In x comp -> live_entry pc cnow ch (x, k)).
    { intros x Hx. apply (live_entry_sub pc cnow ch1 ch _ S1). apply Hit. exact Hx. }
    destruct hit.
    + split; [apply (sub_trans _ ch1); assumption|]. split; [apply Permutation_cons_app; exact P|].
      intros x [Hx | Hx]; [subst x; apply Hh; reflexivity | apply Hit'; exact Hx].
    + split; [apply (sub_trans _ ch1); assumption|]. split; [apply perm_skip; exact P | exact Hit'].
Qed.

Lemma norm_lease_ids_spec ids seen :
  NoDup (norm_lease_ids ids seen) /\ forall l, In l (norm_lease_ids ids seen) -> ~ In l seen.
Proof.
  revert seen. induction ids as [|r tl IH]; intros seen; simpl; [split; [constructor | intros l []]|].
  destruct r as [|l p]; [apply IH|].
  destruct (memN l seen) eqn:M; [apply IH|].
  destruct (IH (l :: seen)) as [ND Hn]. split.
  - constructor; [|exact ND]. intros Hin. apply (Hn l Hin). left. reflexivity.
  - intros x [Hx | Hx].
    + subst x. apply memN_false. exact M.
    + intros Hs. apply (Hn x Hx). right. exact Hs.
Qed.

Lemma normalize_batch single ids maxb ls :
  normalize single ids maxb = NBatch ls -> NoDup ls /\ ls <> [] /\ (0 < maxb -> Z.of_nat (length ls) <= maxb).
Proof.
  unfold normalize. destruct single; [|destruct ids; discriminate]. destruct ids as [|r tl]; [discriminate|].
  pose proof (norm_lease_ids_spec (r :: tl) []) as [ND _].
  destruct (norm_lease_ids (r :: tl) []) as [|x out]; [discriminate|].
  destruct ((0 <? maxb) && (maxb <? Z.of_nat (length (x :: out)))) eqn:C; [discriminate|].
  intros H. inversion H; subst. split; [exact ND|]. split; [discriminate|]. intros Hpos.
  apply andb_false_iff in C. destruct C as [C | C]; apply Z.ltb_ge in C; lia.
Qed.

Definition single_hit (pc : pcfg) (cnow : Z) (k : lease_kind) (l : N) (ch : cache) : bool :=
  match kind_opk k with Some o => snd (cache_lookup pc cnow l o ch) | None => false end.

Definition single_mid (pc : pcfg) (cnow : Z) (k : lease_kind) (l : N) (ch : cache) : cache :=
  match kind_opk k with Some o => fst (cache_lookup pc cnow l o ch) | None => ch end.

Definition single_keys (k : lease_kind) (l : N) : list (N * opk) :=
  match kind_opk k with Some o => [(l, o)] | None => [] end.

Lemma pull_single_cases fl c pc cnow now k l ps :
  pull_single fl c pc cnow now k l ps =
  let ch1 := single_mid pc cnow k l (p_cache ps) in
  if single_hit pc cnow k l (p_cache ps) then (mkP (p_q ps) ch1 (p_down ps), mkResp 204 BNone, mkG [] (single_keys k l))
  else if p_down ps then (mkP (p_q ps) ch1 true, mkResp 500 (BErr CInternal), g0)
  else
    let '(q', r) := step_lease fl c now k (LKnown l false) (p_q ps) in
    match r with
    | RUnit => (mkP q' (remember_all pc cnow (single_keys k l) ch1) false, mkResp 204 BNone, mkG (single_keys k l) [])
    | RErr ENotFound | RErr EExpired => (mkP q' ch1 false, mkResp 409 (BErr CLeaseConflict), g0)
    | _ => (mkP q' ch1 false, mkResp 500 (BErr CInternal), g0)
    end.
Proof.
  unfold pull_single, single_hit, single_mid, single_keys. destruct (kind_opk k) as [o|].
  - destruct (cache_lookup pc cnow l o (p_cache ps)) as [ch1 hit]. reflexivity.
  - reflexivity.
Qed.

Lemma single_mid_sub pc cnow k l ch : sub (single_mid pc cnow k l ch) ch.
Proof. unfold single_mid. destruct (kind_opk k); [apply cache_lookup_sub | apply sub_refl]. Qed.

Lemma single_hit_live pc cnow k l ch p :
  single_hit pc cnow k l ch = true -> In p (single_keys k l) -> live_entry pc cnow ch p.
Proof.
  unfold single_hit, single_keys. destruct (kind_opk k) as [o|]; [|discriminate].
  intros Hit [Hp | []]. subst p. apply cache_lookup_hit. exact Hit.
Qed.

Lemma step_lease_set_msgs fl c now k l s :
  fst (step_lease fl c now k l s) = set_msgs s (msgs (fst (step_lease fl c now k l s))).
Proof.
  unfold step_lease. destruct (is_noop_extend k); [destruct s; reflexivity|].
  destruct l as [x p| |]; try (destruct s; reflexivity).
  destruct (lease_one c now k x (msgs s)) as [l' [|[|]]]; reflexivity.
Qed.

Lemma set_msgs_same s : set_msgs s (apply_pm (fun m => Some m) (msgs s)) = s.
Proof. rewrite apply_pm_id. destruct s; reflexivity. Qed.

(** a single call other than the documented no-op extend: answered from the cache / the store is down / the store
    decides, and accepts exactly the current unexpired lease *)
Lemma pull_single_spec fl c pc cnow now k l ps ps' r g :
  Inv (p_q ps) -> is_noop_extend k = false -> pull_single fl c pc cnow now k l ps = (ps', r, g) ->
  let hit := single_hit pc cnow k l (p_cache ps) in
  let mid := single_mid pc cnow k l (p_cache ps) in
  let keys := single_keys k l in
  (hit = true /\ (ps', r, g) = (mkP (p_q ps) mid (p_down ps), mkResp 204 BNone, mkG [] keys))
  \/ (hit = false /\ p_down ps = true /\ (ps', r, g) = (mkP (p_q ps) mid true, mkResp 500 (BErr CInternal), g0))
  \/ (hit = false /\ p_down ps = false /\
      exists pm, let q' := set_msgs (p_q ps) (apply_pm pm (msgs (p_q ps))) in
        match current now l (msgs (p_q ps)) with
        | Some m => (ps', r, g) = (mkP q' (remember_all pc cnow keys mid) false, mkResp 204 BNone, mkG keys [])
                    /\ pm m = lease_effect c now k m /\ forall y, In y (msgs (p_q ps)) -> y <> m -> pm y = Some y
        | None => (ps', r, g) = (mkP q' mid false, mkResp 409 (BErr CLeaseConflict), g0)
                  /\ forall y, In y (msgs (p_q ps)) ->
                       pm y = Some y \/ (m_lease y = Some l /\ expired now y = true /\ pm y = Some (release now y))
        end).
Proof.
  intros I Hn H. cbv zeta. rewrite pull_single_cases in H. cbv zeta in H.
  destruct (single_hit pc cnow k l (p_cache ps)); [left; split; [reflexivity | symmetry; exact H]|].
  destruct (p_down ps); [right; left; split; [reflexivity|]; split; [reflexivity | symmetry; exact H]|].
  right. right. split; [reflexivity|]. split; [reflexivity|].
  pose proof (step_lease_set_msgs fl c now k (LKnown l false) (p_q ps)) as SM.
  destruct (step_lease fl c now k (LKnown l false) (p_q ps)) as [q' sr] eqn:E. simpl in SM.
  destruct (lease_op_fenced fl c now k l false (p_q ps) q' sr I Hn E) as [pm [Em Hc]].
  exists pm. rewrite <- Em, <- SM.
  destruct (current now l (msgs (p_q ps))) as [m|].
  - destruct Hc as [Er Hpm]. subst sr. split; [symmetry; exact H | exact Hpm].
  - destruct Hc as [Er Hy]. split.
    + destruct Er as [Er | Er]; subst sr; symmetry; exact H.
    + intros y Hin. destruct (Hy y Hin) as [A | [A [B [D _]]]]; [left; exact A | right; repeat split; assumption].
Qed.

(** the documented no-op: extend by a non-positive duration never reaches a message and never touches the cache *)
Lemma pull_single_noop_extend fl c pc cnow now by_ l ps :
  by_ <= 0 ->
  pull_single fl c pc cnow now (KExtend by_) l ps =
  if p_down ps then (ps, mkResp 500 (BErr CInternal), g0) else (ps, mkResp 204 BNone, g0).
Proof.
  intros H. rewrite pull_single_cases. unfold single_hit, single_mid, single_keys. simpl.
  rewrite (extend_nonpositive_is_noop fl c now by_ (LKnown l false) (p_q ps) H).
  destruct ps as [q ch d]; simpl. destruct d; reflexivity.
Qed.

Lemma conflict_ids_cons_known x e cs : conflict_ids ((CKnown x, e) :: cs) = x :: conflict_ids cs.
Proof. reflexivity. Qed.

Lemma lease_batch_conflicts c now k iss xs : forall ms,
  batch_kind_ok k = true -> InvL ms iss -> NoDup xs ->
  forall x, In x (conflict_ids (snd (lease_batch c now k (map (fun l => LKnown l false) xs) ms)))
            <-> In x xs /\ current now x ms = None.
Proof.
  induction xs as [|y tl IH]; intros ms Hk I ND x; simpl; [split; [intros [] | intros [[] _]]|].
  inversion ND as [|? ? Hy NDt]; subst.
  destruct (lease_one c now k y ms) as [ms1 out] eqn:E.
  destruct (lease_one_current c now k y ms ms1 out iss Hk I E) as [Cy Cx].
  assert (I1 : InvL ms1 iss) by (apply (lease_one_inv _ _ _ _ _ _ _ _ E); exact I).
  specialize (IH ms1 Hk I1 NDt x).
  assert (Tl : In x tl /\ current now x ms1 = None <-> In x tl /\ current now x ms = None).
  { assert (Nxy : In x tl -> x <> y) by (intros Hx ->; contradiction). pose proof (Cx x) as C. tauto. }
  rewrite Tl in IH.
  destruct out as [|e]; destruct (lease_batch c now k (map (fun l => LKnown l false) tl) ms1) as [[ms' n] cs]; simpl in *.
  - rewrite IH. split; [intros [Hx Hc]; split; [right; exact Hx | exact Hc]|].
    intros [[Hx | Hx] Hc]; [subst x; contradiction | split; assumption].
  - rewrite IH. split.
    + intros [Hx | [Hx Hc]]; [subst x; split; [left; reflexivity | exact Cy] | split; [right; exact Hx | exact Hc]].
    + intros [[Hx | Hx] Hc]; [left; exact Hx | right; split; assumption].
Qed.

Definition batch_eff_kind (k : lease_kind) : lease_kind := match k with KNack d => KNack (Z.max d 0) | _ => k end.

Lemma step_lease_batch_known c now k xs s :
  batch_kind_ok k = true -> Inv s -> NoDup xs ->
  exists pm n cs,
    step_lease_batch c now k (map (fun l => LKnown l false) xs) s = (set_msgs s (apply_pm pm (msgs s)), RBatch n cs)
    /\ (forall m, In m (msgs s) -> lchange c now (batch_eff_kind k) xs m (pm m))
    /\ (forall m x, In m (msgs s) -> m_lease m = Some x -> In x xs -> is_leased m = true -> now < m_until m ->
                    pm m = lease_effect c now (batch_eff_kind k) m)
    /\ (forall x, In x (conflict_ids cs) <-> In x xs /\ current now x (msgs s) = None).
Proof.
  intros Hk I ND.
  pose proof (lease_batch_fenced c now k (map (fun l => LKnown l false) xs) s) as LF.
  assert (Hk' : batch_kind_ok (batch_eff_kind k) = true) by (destruct k; exact Hk).
  pose proof (lease_batch_conflicts c now (batch_eff_kind k) (issued s) xs (msgs s) Hk' I ND) as Cf.
  unfold step_lease_batch in *. fold (batch_eff_kind k) in *.
  destruct (lease_batch c now (batch_eff_kind k) (map (fun l => LKnown l false) xs) (msgs s)) as [[ms' n] cs].
  destruct (LF _ _ Hk I eq_refl) as [pm [Em [Hl Heff]]]. rewrite known_leases_map in Hl, Heff. simpl in Em, Cf.
  exists pm, n, cs. rewrite Em. split; [reflexivity|]. split; [exact Hl|]. split; [exact Heff | exact Cf].
Qed.

(** the fencing rule for the ids [pending] that a batch call hands to the store, with [stored] what the call
    remembers: what is remembered was current; every message changes as [lchange] allows; unless the store is down, a
    current lease that is handed over takes effect and is remembered *)
Definition batch_fenced (c : cfg) (now : Z) (k : lease_kind) (o : opk) (pending : list N) (q q' : state) (down : bool)
           (stored : list (N * opk)) : Prop :=
  (forall p, In p stored -> snd p = o /\ In (fst p) pending /\ current now (fst p) (msgs q) <> None)
  /\ exists pm, q' = set_msgs q (apply_pm pm (msgs q))
       /\ (forall m, In m (msgs q) -> lchange c now (batch_eff_kind k) pending m (pm m))
       /\ (down = false ->
           forall m x, In m (msgs q) -> m_lease m = Some x -> In x pending -> is_leased m = true -> now < m_until m ->
                       pm m = lease_effect c now (batch_eff_kind k) m /\ In (x, o) stored).

(** successfulLeaseIDs: the pending ids that are not among the reported conflicts *)
Lemma successful_In (o : opk) conflicts pending p :
  In p (map (fun l => (l, o)) (filter (fun l => negb (memN l conflicts)) pending))
  <-> snd p = o /\ In (fst p) pending /\ ~ In (fst p) conflicts.
Proof.
  rewrite in_map_iff. split.
  - intros [x [<- Hx]]. apply filter_In in Hx. destruct Hx as [Hx Hf]. apply negb_true_iff, memN_false in Hf.
    split; [reflexivity | split; assumption].
  - intros [Eo [Hx Hf]]. exists (fst p). split; [rewrite <- Eo; symmetry; apply surjective_pairing|].
    apply filter_In. split; [exact Hx|]. apply negb_true_iff, memN_false. exact Hf.
Qed.

Lemma batch_fenced_no_call c now k o pending q down :
  (down = false -> pending = []) -> batch_fenced c now k o pending q q down [].
Proof.
  intros Hp. split; [intros p []|].
  exists (fun m => Some m). split; [symmetry; apply set_msgs_same|]. split; [intros m _; left; reflexivity|].
  intros Dn m x _ _ Hx. rewrite (Hp Dn) in Hx. destruct Hx.
Qed.

(** a batch call: the cache answers [completed]; the store is asked about [pending], if there is any and the store
    is up; what it accepts is remembered *)
Lemma pull_batch_spec fl c pc cnow now k o ls ps ps' r g :
  Inv (p_q ps) -> batch_kind_ok k = true -> NoDup ls -> pull_batch_call fl c pc cnow now k o ls ps = (ps', r, g) ->
  exists chmid pending completed,
    sub chmid (p_cache ps)
    /\ (forall l, In l completed -> live_entry pc cnow (p_cache ps) (l, o))
    /\ incl pending ls /\ (forall l, In l ls -> In l pending \/ In l completed) /\ (forall l, In l pending -> ~ In l completed)
    /\ p_cache ps' = remember_all pc cnow (g_stored g) chmid
    /\ g_cached g = map (fun l => (l, o)) completed
    /\ batch_fenced c now k o pending (p_q ps) (p_q ps') (p_down ps) (g_stored g).
Proof.
  intros I Hk ND H. unfold pull_batch_call in H.
  pose proof (partition_recent_spec pc cnow o ls (p_cache ps)) as PS.
  destruct (partition_recent pc cnow o ls (p_cache ps)) as [[ch1 pending] completed].
  destruct PS as [S1 [Perm Hit]].
  destruct (NoDup_app_inv _ _ (Permutation_NoDup Perm ND)) as [NDp [_ Dis]].
  exists ch1, pending, completed. split; [exact S1|]. split; [exact Hit|].
  split; [intros x Hx; apply (Permutation_in x (Permutation_sym Perm)); apply in_or_app; left; exact Hx|].
  split; [intros x Hx; apply in_app_or; apply (Permutation_in x Perm Hx)|]. split; [exact Dis|].
  destruct pending as [|p0 ptl] eqn:Ep.
  { inversion H; subst. split; [reflexivity|]. split; [reflexivity|]. apply batch_fenced_no_call. reflexivity. }
  rewrite <- Ep in *. clear Ep p0 ptl.
  destruct (p_down ps) eqn:Dn.
  { inversion H; subst. split; [reflexivity|]. split; [reflexivity|]. apply batch_fenced_no_call. discriminate. }
  destruct (step_lease_batch_known c now k pending (p_q ps) Hk I NDp) as [pm [n [cs [Es [Hl [Heff Cf]]]]]].
  rewrite Es in H. inversion H; subst. simpl.
  split; [reflexivity|]. split; [reflexivity|]. split.
  { intros p Hp. apply successful_In in Hp. destruct Hp as [Eo [Hx Hf]]. split; [exact Eo|]. split; [exact Hx|].
    intros Ec. apply Hf, Cf. split; assumption. }
  exists pm. split; [reflexivity|]. split; [exact Hl|].
  intros _ m x Hm L Hx Il Hu. split; [apply (Heff m x); assumption|].
  (* x is current, so the store has not reported it as a conflict *)
  apply successful_In. cbn [fst snd]. split; [reflexivity|]. split; [exact Hx|]. intros Hc. apply Cf in Hc. destruct Hc as [_ Hc].
  rewrite (current_intro now x _ _ m I Hm L Hu) in Hc. discriminate.
Qed.

Lemma pstep_single fl c pc ps x k l :
  call_single pc (po_call x) = Some (k, l) ->
  pstep fl c pc ps x = pull_single fl c pc (po_cnow x) (po_now x) k l ps.
Proof.
  unfold call_single, pstep. destruct (po_call x) as [route batch ttl wait|single ids|single ids dead reason delay|l0 by_|rk|sx|b];
    try discriminate.
  - unfold pull_lease_req. destruct (normalize single ids (p_max_lease_batch pc)); try discriminate.
    intros H. inversion H; subst. reflexivity.
  - unfold pull_lease_req. destruct (normalize single ids (p_max_lease_batch pc)); try discriminate.
    intros H. inversion H; subst. reflexivity.
  - destruct l0 as [|l1 p]; [discriminate|]. destruct by_ as [b|]; [|discriminate].
    intros H. inversion H; subst. reflexivity.
Qed.

Lemma pstep_batch fl c pc ps x k o ls :
  call_batch pc (po_call x) = Some (k, o, ls) ->
  pstep fl c pc ps x = pull_batch_call fl c pc (po_cnow x) (po_now x) k o ls ps
  /\ batch_kind_ok k = true /\ kind_opk k = Some o /\ NoDup ls /\ ls <> []
  /\ (0 < p_max_lease_batch pc -> Z.of_nat (length ls) <= p_max_lease_batch pc).
Proof.
  unfold call_batch, pstep. destruct (po_call x) as [route batch ttl wait|single ids|single ids dead reason delay|l0 by_|rk|sx|b];
    try discriminate.
  - unfold pull_lease_req. destruct (normalize single ids (p_max_lease_batch pc)) as [|l|ls0] eqn:En; try discriminate.
    intros H. inversion H; subst. split; [reflexivity|]. split; [reflexivity|]. split; [reflexivity|].
    exact (normalize_batch _ _ _ _ En).
  - unfold pull_lease_req. destruct (normalize single ids (p_max_lease_batch pc)) as [|l|ls0] eqn:En; try discriminate.
    intros H. inversion H; subst. split; [reflexivity|]. split; [destruct dead; reflexivity|].
    split; [destruct dead; reflexivity|]. exact (normalize_batch _ _ _ _ En).
Qed.

(** calls that are no lease operation; among them the requests rejected before any operation (malformed, unknown
    endpoint / operation, wrong method, lease_id and lease_ids mixed, empty or blank-only or oversized lists, extend
    without lease_id / extend_by), which change nothing at all *)
Lemma pstep_other fl c pc ps x :
  call_single pc (po_call x) = None -> call_batch pc (po_call x) = None ->
  let '(ps', r, g) := pstep fl c pc ps x in
  g = g0 /\ p_cache ps' = p_cache ps /\ (Inv (p_q ps) -> Inv (p_q ps'))
  /\ match po_call x with
     | PAck _ _ | PNack _ _ _ _ _ | PExtend _ _ | PRaw _ => ps' = ps /\ In (r_status r) [400; 404; 405]
     | _ => True
     end.
Proof.
  unfold call_single, call_batch, pstep.
  destruct (po_call x) as [route batch ttl wait|single ids|single ids dead reason delay|l0 by_|rk|sx|b]; intros H1 H2.
  - unfold pull_dequeue. destruct (p_down ps); [auto|].
    pose proof (step_dequeue_inv fl c (po_now x) (Some route) (p_target pc) (pull_batch pc batch) (pull_ttl pc ttl) (po_orc x) (p_q ps)) as I1.
    destruct (step_dequeue _ _ _ _ _ _ _ _ _) as [q' r]. auto.
  - unfold pull_lease_req. destruct (normalize single ids (p_max_lease_batch pc)); try discriminate. simpl. tauto.
  - unfold pull_lease_req. destruct (normalize single ids (p_max_lease_batch pc)); try discriminate. simpl. tauto.
  - unfold pull_extend_req. destruct l0 as [|l1 p]; [simpl; tauto|].
    destruct by_; [discriminate | simpl; tauto].
  - destruct rk; simpl; tauto.
  - pose proof (step_inv fl c (p_q ps) sx (po_orc x)) as I1. destruct (step fl c (p_q ps) sx (po_orc x)) as [q' r]. auto.
  - auto.
Qed.

Lemma pull_single_inv fl c pc cnow now k l ps : Inv (p_q ps) -> Inv (p_q (fst (fst (pull_single fl c pc cnow now k l ps)))).
Proof.
  intros I. rewrite pull_single_cases. cbv zeta.
  destruct (single_hit pc cnow k l (p_cache ps)); [exact I|]. destruct (p_down ps); [exact I|].
  pose proof (step_lease_inv fl c now k (LKnown l false) (p_q ps) I) as I1.
  destruct (step_lease fl c now k (LKnown l false) (p_q ps)) as [q' r]. simpl in I1.
  destruct r as [|e| | | | | | |]; try exact I1. destruct e; exact I1.
Qed.

Lemma pull_batch_inv fl c pc cnow now k o ls ps : Inv (p_q ps) -> Inv (p_q (fst (fst (pull_batch_call fl c pc cnow now k o ls ps)))).
Proof.
  intros I. unfold pull_batch_call. destruct (partition_recent pc cnow o ls (p_cache ps)) as [[ch1 pending] completed].
  destruct pending as [|p0 ptl]; [exact I|]. destruct (p_down ps); [exact I|].
  pose proof (step_lease_batch_inv c now k (map (fun l => LKnown l false) (p0 :: ptl)) (p_q ps) I) as I1.
  destruct (step_lease_batch c now k (map (fun l => LKnown l false) (p0 :: ptl)) (p_q ps)) as [q' r]. simpl in I1.
  destruct r; exact I1.
Qed.

Lemma pstep_inv fl c pc ps x : Inv (p_q ps) -> Inv (p_q (fst (fst (pstep fl c pc ps x)))).
Proof.
  intros I. destruct (call_single pc (po_call x)) as [[k l]|] eqn:E1;
    [|destruct (call_batch pc (po_call x)) as [[[k o] ls]|] eqn:E2].
  - rewrite (pstep_single fl c pc ps x k l E1). apply pull_single_inv. exact I.
  - destruct (pstep_batch fl c pc ps x k o ls E2) as [Ep _]. rewrite Ep. apply pull_batch_inv. exact I.
  - pose proof (pstep_other fl c pc ps x E1 E2) as O. destruct (pstep fl c pc ps x) as [[ps' r] g].
    destruct O as [_ [_ [O _]]]. exact (O I).
Qed.

(** what a call does with the cache: look-ups only remove entries, then the store successes of this call are
    remembered *)
Definition cache_step (pc : pcfg) (cnow now : Z) (ps ps' : pstate) (g : ghost) : Prop :=
  (exists chmid, sub chmid (p_cache ps) /\ p_cache ps' = remember_all pc cnow (g_stored g) chmid)
  /\ (forall p, In p (g_cached g) -> live_entry pc cnow (p_cache ps) p)
  /\ (forall p, In p (g_stored g) -> current now (fst p) (msgs (p_q ps)) <> None).

Lemma cache_step_quiet pc cnow now ps ps' : sub (p_cache ps') (p_cache ps) -> cache_step pc cnow now ps ps' g0.
Proof. intros S. split; [exists (p_cache ps'); split; [exact S | reflexivity]|]. split; intros p []. Qed.

Lemma pstep_cache fl c pc ps x ps' r g :
  Inv (p_q ps) -> pstep fl c pc ps x = (ps', r, g) -> cache_step pc (po_cnow x) (po_now x) ps ps' g.
Proof.
  intros I Es. destruct (call_single pc (po_call x)) as [[k l]|] eqn:C1;
    [|destruct (call_batch pc (po_call x)) as [[[k o] ls]|] eqn:C2].
  - rewrite (pstep_single fl c pc ps x k l C1) in Es. destruct (is_noop_extend k) eqn:Hn.
    { destruct k; try discriminate. apply Z.leb_le in Hn. rewrite (pull_single_noop_extend _ _ _ _ _ _ _ _ Hn) in Es.
      destruct (p_down ps); inversion Es; subst; apply cache_step_quiet; apply sub_refl. }
    pose proof (single_mid_sub pc (po_cnow x) k l (p_cache ps)) as S.
    destruct (pull_single_spec fl c pc _ _ k l ps ps' r g I Hn Es) as [[Hit E1] | [[_ [_ E1]] | [_ [_ [pm E1]]]]]; cbv zeta in E1.
    + inversion E1; subst. split; [eexists; split; [exact S | reflexivity]|].
      split; [intros p; apply single_hit_live; exact Hit | intros p []].
    + inversion E1; subst. apply cache_step_quiet. exact S.
    + destruct (current (po_now x) l (msgs (p_q ps))) as [m|] eqn:Ec; destruct E1 as [E1 _]; inversion E1; subst.
      * split; [eexists; split; [exact S | reflexivity]|]. split; [intros p []|]. simpl.
        unfold single_keys. destruct (kind_opk k); intros p Hp; [|destruct Hp].
        destruct Hp as [Hp | []]. subst p. simpl. rewrite Ec. discriminate.
      * apply cache_step_quiet. exact S.
  - destruct (pstep_batch fl c pc ps x k o ls C2) as [Ep [Hk [_ [ND _]]]]. rewrite Ep in Es.
    destruct (pull_batch_spec fl c pc _ _ k o ls ps ps' r g I Hk ND Es)
      as [chmid [pending [completed [S [Hit [_ [_ [_ [Ec [Eg [Hst _]]]]]]]]]]].
    split; [exists chmid; split; assumption|]. split; [|intros p Hp; apply (Hst p Hp)].
    rewrite Eg. intros p Hp. apply in_map_iff in Hp. destruct Hp as [l [El Hl]]. subst p. apply Hit. exact Hl.
  - pose proof (pstep_other fl c pc ps x C1 C2) as O. rewrite Es in O. destruct O as [Eg [Ec _]]. subst g.
    apply cache_step_quiet. rewrite Ec. apply sub_refl.
Qed.

(** the entry stands for a call of [past] that the store accepted, and expires RecentLeaseOpTTL after it *)
Definition stored_by (pc : pcfg) (past : list pevent) (e : centry) : Prop :=
  exists e0, In e0 past /\ In (ckey e) (g_stored (pe_ghost e0)) /\ ce_exp e = po_cnow (pe_op e0) + p_recent_ttl pc.

Definition PInv (pc : pcfg) (past : list pevent) (ps : pstate) : Prop :=
  Inv (p_q ps) /\ cache_ok pc (stored_by pc past) (p_cache ps).

Lemma pinv_init pc : PInv pc [] pinit.
Proof. split; [exact inv_init|]. constructor; [intros e [] | constructor | simpl; lia | reflexivity]. Qed.

Lemma pinv_step fl c pc past ps x ps' r g :
  PInv pc past ps -> pstep fl c pc ps x = (ps', r, g) -> PInv pc (past ++ [mkPev x r g ps ps']) ps'.
Proof.
  intros [I Ok] Es. split; [pose proof (pstep_inv fl c pc ps x I) as I1; rewrite Es in I1; exact I1|].
  destruct (pstep_cache fl c pc ps x ps' r g I Es) as [[chmid [S Ec]] _]. rewrite Ec.
  apply cache_ok_remember_all.
  - intros [l k] Hp. exists (mkPev x r g ps ps'). split; [apply in_or_app; right; left; reflexivity|].
    split; [exact Hp | reflexivity].
  - destruct (cache_ok_sub pc _ chmid _ S Ok) as [HJ ND Len Off]. constructor; try assumption.
    intros e He. destruct (HJ e He) as [e0 [A B]]. exists e0. split; [apply in_or_app; left; exact A | exact B].
Qed.

(** every event of a history is one [pstep] from a state that satisfies the invariant with respect to the events
    before it *)
Lemma prun_decompose fl c pc : forall xs ps past, PInv pc past ps ->
  PInv pc (past ++ fst (prun fl c pc ps xs)) (snd (prun fl c pc ps xs))
  /\ forall pre e post, fst (prun fl c pc ps xs) = pre ++ e :: post ->
       PInv pc (past ++ pre) (pe_before e)
       /\ pstep fl c pc (pe_before e) (pe_op e) = (pe_after e, pe_resp e, pe_ghost e).
Proof.
  induction xs as [|x tl IH]; intros ps past PI; simpl.
  - rewrite app_nil_r. split; [exact PI|]. intros pre e post H. destruct pre; discriminate.
  - destruct (pstep fl c pc ps x) as [[ps' r] g] eqn:Es.
    specialize (IH ps' _ (pinv_step fl c pc past ps x ps' r g PI Es)).
    destruct (prun fl c pc ps' tl) as [evs pf]. simpl in *. destruct IH as [PIf Hd].
    split; [rewrite <- app_assoc in PIf; exact PIf|].
    intros pre e post H. destruct pre as [|e1 pre']; simpl in H; inversion H; subst.
    + simpl. rewrite app_nil_r. split; [exact PI | exact Es].
    + destruct (Hd pre' e post eq_refl) as [B D]. rewrite <- app_assoc in B. split; [exact B | exact D].
Qed.

Lemma trace_decompose fl c pc xs pre e post :
  pull_trace fl c pc xs = pre ++ e :: post ->
  PInv pc pre (pe_before e) /\ pstep fl c pc (pe_before e) (pe_op e) = (pe_after e, pe_resp e, pe_ghost e).
Proof. intros H. exact (proj2 (prun_decompose fl c pc xs pinit [] (pinv_init pc)) pre e post H). Qed.

Theorem stored_was_current fl c pc xs e p :
  In e (pull_trace fl c pc xs) -> In p (g_stored (pe_ghost e)) ->
  current (po_now (pe_op e)) (fst p) (msgs (p_q (pe_before e))) <> None.
Proof.
  intros He Hp. apply in_split in He. destruct He as [pre [post He]].
  destruct (trace_decompose fl c pc xs pre e post He) as [[I _] Es].
  destruct (pstep_cache fl c pc _ _ _ _ _ I Es) as [_ [_ H]]. exact (H p Hp).
Qed.

Theorem cached_answer_has_twin fl c pc xs pre e post p :
  pull_trace fl c pc xs = pre ++ e :: post -> In p (g_cached (pe_ghost e)) ->
  0 < p_recent_ttl pc /\ 0 < p_recent_cap pc
  /\ exists e0, In e0 pre /\ In p (g_stored (pe_ghost e0))
                /\ po_cnow (pe_op e) < po_cnow (pe_op e0) + p_recent_ttl pc
                /\ current (po_now (pe_op e0)) (fst p) (msgs (p_q (pe_before e0))) <> None.
Proof.
  intros H Hp. destruct (trace_decompose fl c pc xs pre e post H) as [[I [J _ _ _]] Es].
  destruct (pstep_cache fl c pc _ _ _ _ _ I Es) as [_ [Hh _]].
  destruct (Hh p Hp) as [Off [ce [Hin [Ek Hlt]]]]. split; [|split]; try apply (cache_off_false pc Off).
  destruct (J ce Hin) as [e0 [A [B D]]]. exists e0. split; [exact A|]. rewrite Ek in B. split; [exact B|].
  split; [lia|]. apply (stored_was_current fl c pc xs e0 p); [|exact B].
  rewrite H. apply in_or_app. left. exact A.
Qed.

Lemma kind_opk_not_noop k o : kind_opk k = Some o -> is_noop_extend k = false.
Proof. destruct k; simpl; intros H; try reflexivity; discriminate. Qed.

Theorem idempotent_answer_sound fl c pc xs pre e post k l o :
  pull_trace fl c pc xs = pre ++ e :: post ->
  call_single pc (po_call (pe_op e)) = Some (k, l) -> kind_opk k = Some o ->
  r_status (pe_resp e) = 204 ->
  current (po_now (pe_op e)) l (msgs (p_q (pe_before e))) = None ->
  p_q (pe_after e) = p_q (pe_before e)
  /\ g_cached (pe_ghost e) = [(l, o)] /\ g_stored (pe_ghost e) = []
  /\ exists e0, In e0 pre /\ In (l, o) (g_stored (pe_ghost e0))
                /\ po_cnow (pe_op e) < po_cnow (pe_op e0) + p_recent_ttl pc
                /\ current (po_now (pe_op e0)) l (msgs (p_q (pe_before e0))) <> None.
Proof.
  intros H Ec Ek Hs Hcur. destruct (trace_decompose fl c pc xs pre e post H) as [[I _] Es].
  rewrite (pstep_single fl c pc _ _ k l Ec) in Es.
  destruct (pull_single_spec fl c pc _ _ k l _ _ _ _ I (kind_opk_not_noop k o Ek) Es)
    as [[_ E] | [[_ [_ E]] | [_ [_ [pm E]]]]]; cbv zeta in E.
  - unfold single_keys in E. rewrite Ek in E. injection E as Ea _ Eg. rewrite Ea, Eg. simpl.
    split; [reflexivity|]. split; [reflexivity|]. split; [reflexivity|].
    apply (cached_answer_has_twin fl c pc xs pre e post (l, o) H). rewrite Eg. left. reflexivity.
  - injection E as _ Er _. rewrite Er in Hs. discriminate.
  - rewrite Hcur in E. destruct E as [E _]. injection E as _ Er _. rewrite Er in Hs. discriminate.
Qed.

(** the pattern of the three clamps of ops.go: a positive maximum caps the value *)
Lemma cap_min mx v : (if (0 <? mx) && (mx <? v) then mx else v) = if 0 <? mx then Z.min mx v else v.
Proof. destruct (0 <? mx); simpl; [|reflexivity]. destruct (Z.ltb_spec mx v); lia. Qed.

Lemma cap_le mx v : 0 < mx -> (if (0 <? mx) && (mx <? v) then mx else v) <= mx.
Proof. intros H. rewrite cap_min. destruct (Z.ltb_spec 0 mx); lia. Qed.

(** the pull-level clamp (batch <= 0 -> 1, MaxBatch) composed with the store's (1 .. 100) *)
Lemma pull_batch_closed pc b :
  clamp_batch (pull_batch pc b) =
  Z.min mem_dequeue_batch_cap (if 0 <? p_max_batch pc then Z.min (p_max_batch pc) (Z.max 1 b) else Z.max 1 b).
Proof.
  unfold pull_batch. cbv zeta. rewrite cap_min.
  replace (if b <=? 0 then 1 else b) with (Z.max 1 b) by (destruct (Z.leb_spec b 0); lia).
  set (v := if 0 <? p_max_batch pc then _ else _).
  assert (Hv : 1 <= v) by (unfold v; destruct (Z.ltb_spec 0 (p_max_batch pc)); lia).
  unfold clamp_batch, mem_dequeue_batch_default, mem_dequeue_batch_cap.
  destruct (Z.leb_spec v 0); [lia|]. destruct (Z.ltb_spec 100 v); lia.
Qed.

Lemma pull_ttl_closed pc t :
  pull_ttl pc t = (let t1 := match t with Some v => v | None => p_default_ttl pc end in
                   if 0 <? p_max_ttl pc then Z.min (p_max_ttl pc) t1 else t1).
Proof. apply cap_min. Qed.

(** a failing store: 503 for dequeue, nothing changes *)
Lemma pull_dequeue_down fl c pc now route batch ttl wait o ps :
  p_down ps = true -> pull_dequeue fl c pc now route batch ttl wait o ps = (ps, mkResp 503 (BErr CStoreUnavailable), g0).
Proof. intros H. unfold pull_dequeue. rewrite H. reflexivity. Qed.

(** leaseBatchLimit: with a positive MaxLeaseBatch the gRPC server uses the same limit as the HTTP handler *)
Lemma grpc_pcfg_id pc : 0 < p_max_lease_batch pc -> grpc_pcfg pc = pc.
Proof. intros H. unfold grpc_pcfg. apply Z.ltb_lt in H. rewrite H. destruct pc; reflexivity. Qed.
