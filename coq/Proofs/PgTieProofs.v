(** What the ties and the inventory of Properties/C13pg.v are stated with.  A tie is a finite fact about the generated
    skeletons (Gen/PgTie.v) and is proved there by evaluating the boolean [tie_holds] of Model/PgAllowedDiffs.v, once per
    function; [tie_holds_true] turns its answer into the statement. *)
From Coq Require Import String Ascii List Bool.
From HK Require Import Model.SqlNorm Model.PgAllowedDiffs Proofs.SqlNormProofs.
Import ListNotations.
Local Open Scope string_scope.

Lemma tie_holds_true : forall tbl name sq pg,
  tie_holds tbl name sq pg = true -> sqlite_side tbl name sq = (pg_side pg, []).
Proof.
  intros tbl name sq pg. unfold tie_holds. destruct (sqlite_side tbl name sq) as [l missing].
  intro H. apply andb_true_iff in H. destruct H as [E M].
  apply list_eqb_eq in E. destruct missing; [now subst l | discriminate M].
Qed.

(** inventory: nothing with a database statement, a transaction or a sentinel error is outside the table *)
Definition covered (names only tiednames : list string) : bool :=
  forallb (fun f => mem f tiednames || mem f only) names.

(** the column of a [table.column] entry of the schema inventory *)
Fixpoint after_dot (s : string) : string :=
  match s with
  | EmptyString => EmptyString
  | String c t => if Ascii.eqb c "."%char then t else after_dot t
  end.
