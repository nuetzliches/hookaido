(** Every operation of the store model preserves the invariant; hence every reachable state has it.
    The operations are first put into the forms every later file reasons about: [enq_outcome],
    [deq_pre], [pm_settle]. *)
From Coq Require Import List ZArith NArith Bool.
From HK Require Import Model.Queue Model.QueueMon Proofs.ListFacts Proofs.QueueBase Proofs.QueueInv.
Import ListNotations.
Open Scope Z_scope.

Lemma assign_ids_length es gen ies : assign_ids es gen = Some ies -> length ies = length es.
Proof.
  revert gen ies. induction es as [|e tl IH]; simpl; intros gen ies H.
  - inversion H; reflexivity.
  - destruct (e_id e).
    + destruct (assign_ids tl gen) as [r|] eqn:E; simpl in H; inversion H; subst. simpl. f_equal. apply (IH _ _ E).
    + destruct gen as [|g gtl]; [discriminate|].
      destruct (assign_ids tl gtl) as [r|] eqn:E; simpl in H; inversion H; subst. simpl. f_equal. apply (IH _ _ E).
Qed.

Lemma ids_remove_ids vs l i :
  In i (ids (apply_pm (pm_remove_ids vs) l)) -> In i (ids l) /\ ~ In i vs.
Proof.
  unfold ids. intros H. apply in_map_iff in H. destruct H as [m [E Hm]].
  apply apply_pm_In in Hm. destruct Hm as [m0 [H0 Ep]]. unfold pm_remove_ids in Ep.
  destruct (memN (m_id m0) vs) eqn:Em; inversion Ep; subst. split.
  - apply in_map. exact H0.
  - apply memN_false. exact Em.
Qed.

(** what both backends do first: make room for [k] new messages in the state [s1]; the result is
    the list that remains, [None] = ErrQueueFull (the eviction stage of [step_enqueue]) *)
Definition enq_room (fl : flavour) (c : cfg) (k : Z) (hint : list N) (s1 : state) : option (list msg) :=
  let l1 := msgs s1 in
  match fl with
  | Mem => option_map (fun victims => apply_pm (pm_remove_ids victims) l1) (mem_plan c k s1 l1)
  | Sql => if 0 <? c_max_depth c then
             if c_drop_oldest c then sql_make_room c (S (length l1)) (active l1 + k) hint l1
             else if c_max_depth c <? active l1 + k then None else Some l1
           else Some l1
  end.

(** the outcomes of [step_enqueue fl c now single es o s]; [s1] is [s] after the retention prune *)
Inductive enq_outcome (fl : flavour) (c : cfg) (now : Z) (single : bool) (es : list enq) (o : oracle) (s s1 : state)
  : state -> res -> Prop :=
| eo_empty : es = [] -> enq_outcome fl c now single es o s s1 s (RCount 0 0 false)
| eo_bad_oracle : es <> [] -> assign_ids es (o_genids o) = None -> enq_outcome fl c now single es o s s1 s RBadOracle
| eo_refused e : es <> [] -> enq_outcome fl c now single es o s s1 s1 (RErr e)
| eo_done ies l2 :
    es <> [] -> assign_ids es (o_genids o) = Some ies ->
    enq_room fl c (Z.of_nat (length ies)) (o_gone o) s1 = Some l2 ->
    ((single = true -> length es = 1%nat) -> NoDup (map fst ies)) ->
    (forall i, In i (map fst ies) -> ~ In i (ids l2)) ->
    enq_outcome fl c now single es o s s1
      (mkState (l2 ++ map (fun p => mk_msg now (fst p) (snd p)) ies)
               (match fl with Mem => order s1 ++ map fst ies | Sql => order s1 end)
               (last_prune s1) (last_sweep s1) (issued s1))
      (if single then RUnit else RCount (Z.of_nat (length ies)) 0 false).

Lemma step_enqueue_cases fl c now single es o s s' r :
  step_enqueue fl c now single es o s = (s', r) ->
  enq_outcome fl c now single es o s (prune c now (o_gone o) s) s' r.
Proof.
  intros H. unfold step_enqueue in H.
  destruct es as [|e0 es0]; [inversion H; apply eo_empty; reflexivity|].
  set (es := e0 :: es0) in *. assert (Hne : es <> []) by discriminate.
  destruct (assign_ids es (o_genids o)) as [ies|] eqn:EA; [|inversion H; apply eo_bad_oracle; assumption].
  set (s1 := prune c now (o_gone o) s) in *.
  assert (Refused : forall e, (s1, RErr e) = (s', r) -> enq_outcome fl c now single es o s s1 s' r).
  { intros e E. inversion E. apply eo_refused. exact Hne. }
  destruct fl.
  - destruct (mem_plan c (Z.of_nat (length ies)) s1 (msgs s1)) as [victims|] eqn:EP; [|exact (Refused _ H)].
    set (fresh := forallb (fun i => negb (has_id i (msgs s1)) || memN i victims) (map fst ies)) in *.
    assert (Room : enq_room Mem c (Z.of_nat (length ies)) (o_gone o) s1 = Some (apply_pm (pm_remove_ids victims) (msgs s1))).
    { unfold enq_room. rewrite EP. reflexivity. }
    (* a new id may be that of a stored message only if that message is evicted *)
    assert (Fresh : fresh = true -> forall i, In i (map fst ies) -> ~ In i (ids (apply_pm (pm_remove_ids victims) (msgs s1)))).
    { intros Ef i Hi Hin. apply ids_remove_ids in Hin. destruct Hin as [Hin Hv].
      unfold fresh in Ef. rewrite forallb_forall in Ef. specialize (Ef i Hi).
      apply orb_true_iff in Ef. destruct Ef as [Ef | Ef].
      - apply negb_true_iff in Ef. apply has_id_In in Hin. congruence.
      - apply memN_In in Ef. contradiction. }
    destruct single.
    + destruct (pressure c (msgs s1)); [exact (Refused _ H)|].
      destruct fresh; [|exact (Refused _ H)]. inversion H.
      apply (eo_done Mem c now true es o s s1 ies _ Hne EA Room); [|apply Fresh; reflexivity].
      intros Hs. pose proof (assign_ids_length _ _ _ EA) as Hlen. rewrite (Hs eq_refl) in Hlen.
      destruct ies as [|p [|q t]]; try discriminate. constructor; [intros [] | constructor].
    + destruct (nodupN (map fst ies)) eqn:End; [|exact (Refused _ H)].
      destruct fresh; [|exact (Refused _ H)].
      destruct (pressure c (msgs s1)); [exact (Refused _ H)|]. inversion H.
      apply (eo_done Mem c now false es o s s1 ies _ Hne EA Room); [|apply Fresh; reflexivity].
      intros _. apply nodupN_NoDup. exact End.
  - match type of H with (match ?rm with _ => _ end) = _ =>
      change rm with (enq_room Sql c (Z.of_nat (length ies)) (o_gone o) s1) in H end.
    destruct (enq_room Sql c (Z.of_nat (length ies)) (o_gone o) s1) as [l2|] eqn:Er; [|exact (Refused _ H)].
    destruct (nodupN (map fst ies)) eqn:End; [|exact (Refused _ H)].
    destruct (forallb (fun i => negb (has_id i l2)) (map fst ies)) eqn:Ef; [|exact (Refused _ H)].
    inversion H. apply (eo_done Sql c now single es o s s1 ies l2 Hne EA Er); [intros _; apply nodupN_NoDup; exact End|].
    intros i Hi Hin. rewrite forallb_forall in Ef. specialize (Ef i Hi).
    apply negb_true_iff in Ef. apply has_id_In in Hin. congruence.
Qed.

Lemma enq_room_inv fl c k hint s1 l2 : enq_room fl c k hint s1 = Some l2 -> Inv s1 -> InvL l2 (issued s1).
Proof.
  unfold enq_room. intros H I. destruct fl.
  - destruct (mem_plan c k s1 (msgs s1)) as [victims|]; inversion H. apply invl_remove. exact I.
  - destruct (0 <? c_max_depth c); [|inversion H; subst; exact I].
    destruct (c_drop_oldest c); [apply (sql_make_room_inv _ _ _ _ _ _ _ H I)|].
    destruct (c_max_depth c <? active (msgs s1) + k); inversion H; subst; exact I.
Qed.

Lemma step_enqueue_inv fl c now single es o s :
  (single = true -> length es = 1%nat) ->
  Inv s -> Inv (fst (step_enqueue fl c now single es o s)).
Proof.
  intros Hsingle I. pose proof (inv_prune c now (o_gone o) s I) as I1.
  destruct (step_enqueue fl c now single es o s) as [s' r] eqn:E.
  destruct (step_enqueue_cases _ _ _ _ _ _ _ _ _ E) as [_ | _ _ | e _ | ies l2 _ _ Room ND Fresh]; try assumption.
  apply invl_app_news; [apply (enq_room_inv _ _ _ _ _ _ Room I1) | apply ND, Hsingle | exact Fresh].
Qed.

Lemma lease_of_In picked i x : lease_of picked i = Some x -> In (i, x) picked.
Proof.
  unfold lease_of. destruct (find (fun p => N.eqb (fst p) i) picked) as [p|] eqn:E; [|discriminate].
  intros H. inversion H; subst. apply find_some in E. destruct E as [Hin Heq].
  apply N.eqb_eq in Heq. destruct p as [a b]; simpl in *. subst. exact Hin.
Qed.

Lemma lease_of_picked picked i x : NoDup (map fst picked) -> In (i, x) picked -> lease_of picked i = Some x.
Proof.
  intros ND Hin. unfold lease_of. destruct (find (fun p => N.eqb (fst p) i) picked) as [p|] eqn:E.
  - apply find_some in E. destruct E as [Hp Heq]. apply N.eqb_eq in Heq.
    rewrite (NoDup_map_inj fst picked p (i, x) ND Hp Hin Heq). reflexivity.
  - apply (find_none _ _ E) in Hin. simpl in Hin. rewrite N.eqb_refl in Hin. discriminate.
Qed.

Lemma invl_lease l iss now t picked :
  InvL l iss -> NoDup (map snd picked) -> (forall x, In x (map snd picked) -> ~ In x iss) ->
  InvL (apply_pm (pm_lease now t picked) l) (iss ++ map snd picked).
Proof.
  intros [ND CO LI LS] NDl Fresh.
  (* a message keeps what it had, or takes the lease id picked for it, which no message holds yet *)
  assert (Shape : forall a a', In a l -> pm_lease now t picked a = Some a' ->
            (a' = a \/ exists lid, In (m_id a, lid) picked /\ m_lease a' = Some lid /\ coherent a' = true)).
  { intros a a' Ha H. unfold pm_lease in H. destruct (lease_of picked (m_id a)) as [lid|] eqn:E; inversion H; subst.
    - right. exists lid. apply lease_of_In in E. repeat split. exact E.
    - left. reflexivity. }
  assert (New : forall i lid b, In (i, lid) picked -> In b l -> m_lease b <> Some lid).
  { intros i lid b Hp Hb L. apply (Fresh lid); [apply (in_map snd _ _ Hp) | apply (LS b lid Hb L)]. }
  constructor.
  - apply apply_pm_NoDup_on; [|exact ND]. intros x x' _. apply imm_pres_id_pres, pm_lease_imm.
  - intros m Hm. apply apply_pm_In in Hm. destruct Hm as [a [Ha Ea]].
    destruct (Shape a m Ha Ea) as [E | [lid [_ [_ C]]]]; [subst; apply CO; exact Ha | exact C].
  - intros m1 m2 x H1 H2 L1 L2.
    apply apply_pm_In in H1. destruct H1 as [a [Ha Ea]].
    apply apply_pm_In in H2. destruct H2 as [b [Hb Eb]].
    destruct (Shape a m1 Ha Ea) as [E1 | [la [Pa [La _]]]]; destruct (Shape b m2 Hb Eb) as [E2 | [lb [Pb [Lb _]]]].
    + subst m1 m2. apply (LI a b x); assumption.
    + subst m1. exfalso. apply (New _ _ a Pb Ha). congruence.
    + subst m2. exfalso. apply (New _ _ b Pa Hb). congruence.
    + assert (E : (m_id a, la) = (m_id b, lb)) by (apply (NoDup_map_inj snd picked); [assumption..|simpl; congruence]).
      assert (a = b) by (apply (nodup_ids_inj l); [assumption..|congruence]). subst b. congruence.
  - intros m x Hm L. apply apply_pm_In in Hm. destruct Hm as [a [Ha Ea]]. apply in_or_app.
    destruct (Shape a m Ha Ea) as [E | [la [Pa [La _]]]].
    + subst m. left. apply (LS a x Ha L).
    + right. replace x with la by congruence. apply (in_map snd _ _ Pa).
Qed.

Lemma valid_pick_parts now route target batch l iss picked :
  valid_pick now route target batch l iss picked = true ->
  NoDup (map fst picked) /\ NoDup (map snd picked)
  /\ (forall i, In i (map fst picked) -> exists m, find_id i l = Some m /\ ready now route target m = true)
  /\ (forall x, In x (map snd picked) -> ~ In x iss)
  /\ Z.of_nat (length picked) = Z.min batch (Z.of_nat (length (filter (ready now route target) l))).
Proof.
  unfold valid_pick. rewrite !andb_true_iff. intros [[[[A B] Cc] D] E].
  split; [apply nodupN_NoDup; exact A|]. split; [apply nodupN_NoDup; exact B|].
  split; [|split].
  - intros i Hi. rewrite forallb_forall in Cc. specialize (Cc i Hi).
    destruct (find_id i l) as [m|]; [exists m; split; [reflexivity | exact Cc] | discriminate].
  - intros x Hx. rewrite forallb_forall in D. specialize (D x Hx). apply negb_true_iff in D. apply memN_false. exact D.
  - apply Z.eqb_eq. exact E.
Qed.

(** the state a dequeue selects from: the retention prune, then the release of expired leases - always on the memory
    backend, on SQLite only when the 10 ms sweep throttle lets it *)
Definition deq_pre (fl : flavour) (c : cfg) (now : Z) (o : oracle) (s : state) : state :=
  match fl with
  | Mem => let s1 := prune c now (o_gone o) s in set_msgs s1 (sweep now (msgs s1))
  | Sql => let s1 := prune c now (o_gone o) s in
           if sql_sweep_due now (last_sweep s1)
           then mkState (sweep now (msgs s1)) (order s1) (last_prune s1) now (issued s1)
           else s1
  end.

Lemma deq_pre_inv fl c now o s : Inv s -> Inv (deq_pre fl c now o s).
Proof.
  intros I. pose proof (inv_prune c now (o_gone o) s I) as I1. unfold deq_pre. destruct fl.
  - unfold Inv; simpl. apply invl_sweep. exact I1.
  - destruct (sql_sweep_due now _); [unfold Inv; simpl; apply invl_sweep|]; exact I1.
Qed.

Lemma step_dequeue_eq fl c now route target batch ttl o s :
  step_dequeue fl c now route target batch ttl o s =
  let s2 := deq_pre fl c now o s in
  if valid_pick now route target (clamp_batch batch) (msgs s2) (issued s2) (o_picked o) then
    let l3 := apply_pm (pm_lease now (eff_ttl ttl) (o_picked o)) (msgs s2) in
    (mkState l3 (order s2) (last_prune s2) (last_sweep s2) (issued s2 ++ map snd (o_picked o)),
     RItems (map (fun p => match find_id (fst p) l3 with
                           | Some m => (fst p, snd p, m_attempt m, m_until m)
                           | None => (fst p, snd p, 0, 0) end) (o_picked o)))
  else (s2, RBadOracle).
Proof. unfold step_dequeue, deq_pre. destruct fl; reflexivity. Qed.

Lemma dequeue_answers fl c now route target batch ttl o s s' r :
  step_dequeue fl c now route target batch ttl o s = (s', r) -> r = RBadOracle \/ exists items, r = RItems items.
Proof. rewrite step_dequeue_eq. cbv zeta. destruct (valid_pick _ _ _ _ _ _ _); intros H; inversion H; eauto. Qed.

Lemma step_dequeue_inv fl c now route target batch ttl o s :
  Inv s -> Inv (fst (step_dequeue fl c now route target batch ttl o s)).
Proof.
  intros I. rewrite step_dequeue_eq. cbv zeta.
  pose proof (deq_pre_inv fl c now o s I) as I2.
  destruct (valid_pick _ _ _ _ _ _ _) eqn:V; [|exact I2].
  apply valid_pick_parts in V. destruct V as [_ [B [_ [D _]]]].
  unfold Inv; simpl. apply invl_lease; assumption.
Qed.

Lemma find_lease_Some x l m : find_lease x l = Some m -> In m l /\ m_lease m = Some x.
Proof.
  induction l as [|a tl IH]; simpl; [discriminate|].
  destruct (m_lease a) as [y|] eqn:E.
  - destruct (N.eqb x y) eqn:Ex.
    + intros H. inversion H; subst. apply N.eqb_eq in Ex. subst. split; [left; reflexivity | exact E].
    + intros H. destruct (IH H). split; [right|]; assumption.
  - intros H. destruct (IH H). split; [right|]; assumption.
Qed.

Lemma find_lease_None x l : find_lease x l = None -> forall m, In m l -> m_lease m <> Some x.
Proof.
  induction l as [|a tl IH]; simpl; intros H m Hm; [destruct Hm|].
  destruct (m_lease a) as [y|] eqn:E.
  - destruct (N.eqb x y) eqn:Ex; [discriminate|]. apply N.eqb_neq in Ex.
    destruct Hm as [Hm | Hm]; [subst; congruence | apply IH; assumption].
  - destruct Hm as [Hm | Hm]; [subst; congruence | apply IH; assumption].
Qed.

Lemma find_lease_holder x ms iss m :
  InvL ms iss -> In m ms -> m_lease m = Some x -> find_lease x ms = Some m.
Proof.
  intros I Hm L. destruct (find_lease x ms) as [m1|] eqn:F.
  - apply find_lease_Some in F. destruct F as [H1 L1]. f_equal. apply (inv_linj _ _ I m1 m x); assumption.
  - exfalso. apply (find_lease_None x ms F m Hm L).
Qed.

Lemma coherent_leased m : coherent m = true -> is_leased m = true -> exists x, m_lease m = Some x.
Proof.
  unfold coherent, is_leased. destruct (m_st m); simpl; try discriminate.
  destruct (m_lease m) as [x|]; [intros; exists x; reflexivity | discriminate].
Qed.

Lemma lease_is_leased m x : coherent m = true -> m_lease m = Some x -> is_leased m = true.
Proof. unfold coherent, is_leased. intros C L. rewrite L in C. destruct (m_st m); try discriminate. reflexivity. Qed.

Definition held (pres : list N) (m : msg) : bool :=
  is_leased m && match m_lease m with Some y => memN y pres | None => false end.

Lemma held_In pres m : held pres m = true <-> is_leased m = true /\ exists y, m_lease m = Some y /\ In y pres.
Proof.
  unfold held. rewrite andb_true_iff. destruct (m_lease m) as [y|].
  - rewrite memN_In. split; intros [A B]; (split; [exact A|]); [exists y; auto | destruct B as [z [E B]]; congruence].
  - split; intros [A B]; [discriminate | destruct B as [z [E B]]; discriminate].
Qed.

(** what a lease operation of kind [k] presenting the lease ids [pres] does to one message *)
Definition pm_settle (c : cfg) (now : Z) (k : lease_kind) (pres : list N) : msg -> option msg :=
  pm_guard (held pres) (fun m => if m_until m <=? now then Some (release now m) else lease_effect c now k m).

Lemma settle_live c now k pres m x :
  m_lease m = Some x -> In x pres -> is_leased m = true -> now < m_until m ->
  pm_settle c now k pres m = lease_effect c now k m.
Proof.
  intros L Hx Il Hu. unfold pm_settle, pm_guard.
  assert (H : held pres m = true) by (apply held_In; split; [exact Il | exists x; split; assumption]).
  apply Z.leb_gt in Hu. rewrite H, Hu. reflexivity.
Qed.

Lemma settle_not_leased c now k pres m : is_leased m = false -> pm_settle c now k pres m = Some m.
Proof. intros L. unfold pm_settle, pm_guard, held. rewrite L. reflexivity. Qed.

Lemma settle_other c now k pres m : (forall x, In x pres -> m_lease m <> Some x) -> pm_settle c now k pres m = Some m.
Proof.
  intros H. unfold pm_settle, pm_guard. destruct (held pres m) eqn:E; [|reflexivity].
  apply held_In in E. destruct E as [_ [y [L Hy]]]. destruct (H y Hy L).
Qed.

Lemma pm_settle_imm c now k pres : imm_pres (pm_settle c now k pres).
Proof.
  apply guard_imm. intros m m' H.
  destruct (m_until m <=? now); [inversion H; apply release_same_imm | apply (lease_effect_imm c now k m m' H)].
Qed.

Lemma lease_effect_clears c now k m m' :
  batch_kind_ok k = true -> lease_effect c now k m = Some m' -> m_lease m' = None /\ is_leased m' = false.
Proof.
  unfold lease_effect. destruct k; simpl; intros Hk E; try discriminate.
  - destruct (0 <? c_deliv_age c); inversion E; split; reflexivity.
  - inversion E; split; reflexivity.
  - inversion E; split; reflexivity.
Qed.

Lemma invl_settle c now k pres l iss : InvL l iss -> InvL (apply_pm (pm_settle c now k pres) l) iss.
Proof.
  intros I. apply invl_apply_pm; [exact I|]. apply tame_guard; [apply I|].
  intros y y' _ Hh E. apply held_In in Hh. destruct Hh as [_ [z [L _]]].
  destruct (m_until y <=? now); [inversion E; apply tame_release | apply (tame_lease_effect c now k y y' z L E)].
Qed.

(** in a state that has the invariant, the one lookup of [lease_one] acts like the per-message test *)
Lemma lease_one_eq c now k x l iss :
  InvL l iss ->
  lease_one c now k x l =
  (apply_pm (pm_settle c now k [x]) l,
   match find_lease x l with
   | Some m => if m_until m <=? now then LConflict true else LOk
   | None => LConflict false
   end).
Proof.
  intros I. unfold lease_one. destruct (find_lease x l) as [m|] eqn:F.
  - apply find_lease_Some in F. destruct F as [Hm Lm].
    assert (Il : is_leased m = true) by (apply (lease_is_leased m x); [apply I; exact Hm | exact Lm]).
    rewrite Il. cbn [negb].
    (* on this list, having [m]'s id and holding [x] both mean being [m] *)
    assert (Ext : forall y, In y l ->
              pm_on_id (m_id m) (fun z => if m_until m <=? now then Some (release now z) else lease_effect c now k z) y
              = pm_settle c now k [x] y).
    { intros y Hy. unfold pm_on_id. destruct (N.eqb (m_id y) (m_id m)) eqn:E.
      - apply N.eqb_eq in E. rewrite (nodup_ids_inj l y m (inv_nodup _ _ I) Hy Hm E).
        assert (H : held [x] m = true).
        { apply held_In. split; [exact Il|]. exists x. split; [exact Lm | left; reflexivity]. }
        unfold pm_settle, pm_guard. rewrite H. reflexivity.
      - symmetry. apply settle_other. intros z [<- | []] Ly.
        rewrite (inv_linj _ _ I y m x Hy Hm Ly Lm), N.eqb_refl in E. discriminate. }
    destruct (m_until m <=? now); f_equal; apply apply_pm_ext; exact Ext.
  - f_equal. rewrite <- (apply_pm_id l) at 1. apply apply_pm_ext. intros y Hy.
    symmetry. apply settle_other. intros z [<- | []]. apply (find_lease_None x l F y Hy).
Qed.

Lemma lease_one_inv c now k x l l' out iss :
  lease_one c now k x l = (l', out) -> InvL l iss -> InvL l' iss.
Proof. intros H I. rewrite (lease_one_eq c now k x l iss I) in H. inversion H. apply invl_settle. exact I. Qed.

Lemma step_lease_inv fl c now k l s : Inv s -> Inv (fst (step_lease fl c now k l s)).
Proof.
  intros I. unfold step_lease. destruct (is_noop_extend k); [exact I|].
  destruct l as [x p| |]; try exact I.
  destruct (lease_one c now k x (msgs s)) as [l' out] eqn:E.
  assert (InvL l' (issued s)) by (apply (lease_one_inv _ _ _ _ _ _ _ _ E); exact I).
  destruct out as [|[|]]; exact H.
Qed.

Lemma lease_batch_cons_msgs c now k l tl ms :
  fst (fst (lease_batch c now k (l :: tl) ms)) =
  fst (fst (lease_batch c now k tl (match l with LKnown x _ => fst (lease_one c now k x ms) | _ => ms end))).
Proof.
  simpl. destruct l as [x p| |]; [destruct (lease_one c now k x ms) as [ms1 [|e]]|..]; simpl;
    destruct (lease_batch c now k tl _) as [[ms' n] cs]; reflexivity.
Qed.

Lemma lease_batch_inv c now k ls ms iss :
  InvL ms iss -> InvL (fst (fst (lease_batch c now k ls ms))) iss.
Proof.
  revert ms. induction ls as [|l tl IH]; intros ms I; [exact I|].
  rewrite lease_batch_cons_msgs. apply IH. destruct l as [x p| |]; try exact I.
  destruct (lease_one c now k x ms) as [ms1 out] eqn:E. apply (lease_one_inv _ _ _ _ _ _ _ _ E I).
Qed.

Lemma step_lease_batch_inv c now k ls s : Inv s -> Inv (fst (step_lease_batch c now k ls s)).
Proof.
  intros I. unfold step_lease_batch.
  set (k' := match k with KNack d => KNack (Z.max d 0) | _ => k end).
  pose proof (lease_batch_inv c now k' ls (msgs s) (issued s) I) as H.
  destruct (lease_batch c now k' ls (msgs s)) as [[ms' n] cs]. simpl in *. exact H.
Qed.

Lemma invl_manage l iss now k idl : InvL l iss -> InvL (apply_pm (pm_manage now k idl) l) iss.
Proof.
  intros I. apply invl_apply_pm; [exact I|].
  apply (tame_guard l (fun m => memN (m_id m) idl && allowed_from k (m_st m)) (manage_effect now k)); [apply I|].
  intros x x' _ _ E. apply (tame_manage_effect now k x x' E).
Qed.

Lemma step_manage_f_inv now k f s : Inv s -> Inv (fst (step_manage_f now k f s)).
Proof.
  intros I. unfold step_manage_f. destruct (f_preview f); [exact I|]. apply invl_manage. exact I.
Qed.

Theorem step_inv fl c s x o : Inv s -> Inv (fst (step fl c s x o)).
Proof.
  intros I. destruct x; cbn [step].
  - apply step_enqueue_inv; [reflexivity | exact I].
  - apply step_enqueue_inv; [discriminate | exact I].
  - apply step_dequeue_inv; exact I.
  - apply step_lease_inv; exact I.
  - destruct (batch_kind_ok k); [apply step_lease_batch_inv|]; exact I.
  - apply (invl_manage _ _ now k _ I).
  - destruct k; try exact I; apply step_manage_f_inv; exact I.
  - unfold step_list. destruct ord; simpl; apply inv_prune; exact I.
  - unfold step_list_dead; simpl. apply inv_prune; exact I.
  - exact I.
  - unfold step_stats; simpl. apply inv_prune; exact I.
  - destruct fl; exact I.
Qed.

Lemma step_inv_eq fl c s x o s' r : Inv s -> step fl c s x o = (s', r) -> Inv s'.
Proof. intros I H. pose proof (step_inv fl c s x o I) as X. rewrite H in X. exact X. Qed.

(** what a step leaves alone: the order log unless it enqueues, the sweep clock unless it is a dequeue or a reopen, the
    issued lease ids unless it is a dequeue (and only a dequeue returns leases) *)
Lemma step_frame fl c s x o :
  (enq_list x = [] -> order (fst (step fl c s x o)) = order s)
  /\ (is_dequeue x = false -> (forall now, x <> Reopen now) -> last_sweep (fst (step fl c s x o)) = last_sweep s)
  /\ (is_dequeue x = false -> issued (fst (step fl c s x o)) = issued s /\ item_leases (snd (step fl c s x o)) = []).
Proof.
  assert (Enq : forall now single es,
            last_sweep (fst (step_enqueue fl c now single es o s)) = last_sweep s
            /\ issued (fst (step_enqueue fl c now single es o s)) = issued s
            /\ item_leases (snd (step_enqueue fl c now single es o s)) = []).
  { intros now single es. destruct (step_enqueue fl c now single es o s) as [s' r] eqn:E.
    destruct (step_enqueue_cases _ _ _ _ _ _ _ _ _ E) as [_ | _ _ | e _ | ies l2 _ _ _ _ _]; cbn [fst snd last_sweep issued].
    - repeat split.
    - repeat split.
    - split; [apply prune_last_sweep|]. split; [apply prune_issued | reflexivity].
    - split; [apply prune_last_sweep|]. split; [apply prune_issued | destruct single; reflexivity]. }
  assert (Pruned : forall now, order (prune c now (o_gone o) s) = order s
            /\ last_sweep (prune c now (o_gone o) s) = last_sweep s /\ issued (prune c now (o_gone o) s) = issued s).
  { intros now. split; [apply prune_order|]. split; [apply prune_last_sweep | apply prune_issued]. }
  destruct x; cbn [step enq_list is_dequeue].
  - destruct (Enq now true [e]) as [A B]. split; [discriminate|]. split; [intros _ _; exact A | intros _; exact B].
  - destruct (Enq now false es) as [A B]. split; [intros ->; reflexivity|]. split; [intros _ _; exact A | intros _; exact B].
  - split; [intros _ | split; discriminate]. rewrite step_dequeue_eq. cbv zeta.
    assert (E : order (deq_pre fl c now o s) = order s)
      by (unfold deq_pre; destruct fl; [|destruct (sql_sweep_due _ _)]; apply prune_order).
    destruct (valid_pick _ _ _ _ _ _ _); exact E.
  - unfold step_lease. destruct (is_noop_extend k); [repeat split|].
    destruct l; try solve [repeat split]. destruct (lease_one c now k l (msgs s)) as [l' [|[|]]]; repeat split.
  - destruct (batch_kind_ok k); [|repeat split]. unfold step_lease_batch.
    destruct (lease_batch c now _ ls (msgs s)) as [[ms' n] cs]. repeat split.
  - repeat split.
  - destruct k; try solve [repeat split]; unfold step_manage_f; destruct (f_preview f); repeat split.
  - destruct (Pruned now) as [A [B C]]. unfold step_list. destruct ord; cbn [fst snd item_leases deq_items map]; auto.
  - destruct (Pruned now) as [A [B C]]. cbn [step_list_dead fst snd item_leases deq_items map]. auto.
  - repeat split.
  - destruct (Pruned now) as [A [B C]]. cbn [step_stats fst snd item_leases deq_items map]. auto.
  - split; [intros _; destruct fl; reflexivity|]. split; [intros _ Hr; destruct (Hr now eq_refl) | intros _; destruct fl; split; reflexivity].
Qed.

Lemma run_fst_snd fl c s xs : snd (run fl c s xs) = fold_left (fun st xo => fst (step fl c st (fst xo) (snd xo))) xs s.
Proof.
  revert s. induction xs as [|[x o] tl IH]; simpl; intros s; [reflexivity|].
  destruct (step fl c s x o) as [s' r] eqn:E. specialize (IH s').
  destruct (run fl c s' tl) as [evs sf]. simpl in *. rewrite <- IH. reflexivity.
Qed.

Lemma run_invariant fl c (P : state -> Prop) :
  (forall s x o, P s -> P (fst (step fl c s x o))) -> forall s xs, P s -> P (snd (run fl c s xs)).
Proof.
  intros Hstep s xs. rewrite run_fst_snd. apply fold_left_inv. intros s0 [x o]. apply Hstep.
Qed.

Theorem run_inv fl c s xs : Inv s -> Inv (snd (run fl c s xs)).
Proof. apply run_invariant. intros s0 x o. apply step_inv. Qed.

Theorem reachable_inv fl c xs : Inv (snd (run fl c init xs)).
Proof. apply run_inv. apply inv_init. Qed.
