(** Non-vacuity: concrete requests meeting the hypotheses of the C08/C09 theorems, evaluated with the
    Gallina SHA-256/HMAC instance (signature computed by Python's hmac over
    "1700000000\nPOST\n/hooks\n" ++ hex(sha256 body) with key "k1"). *)
From Coq Require Import ZArith List Bool NArith.
From HK Require Import Model.NonceCache Model.Hmac Model.HmacHistory Model.Sha256 Model.BasicAuth Model.Ingress
  Model.AuthEval Proofs.HmacProofs Proofs.IngressProofs.
Import ListNotations.
Open Scope Z_scope.

Definition b0 : list N := [88;45;83;105;103;110;97;116;117;114;101]%N.
Definition b1 : list N := [88;45;84;105;109;101;115;116;97;109;112]%N.
Definition b2 : list N := [88;45;78;111;110;99;101]%N.
Definition b3 : list N := [111;108;100]%N.
Definition b4 : list N := [80;79;83;84]%N.
Definition b5 : list N := [47;104;111;111;107;115]%N.
Definition b6 : list N := [32;49;66;56;48;69;49;68;70;67;48;51;48;48;69;52;57;65;51;49;66;54;55;48;50;52;56;69;70;65;56;49;53;54;65;55;49;48;52;51;51;50;51;50;69;57;48;69;65;48;48;67;66;66;68;51;66;68;66;50;70;51;67;69;56;32]%N.
Definition b7 : list N := [49;55;48;48;48;48;48;48;48;48]%N.
Definition b8 : list N := [110;45;49]%N.
Definition b9 : list N := [123;34;97;34;58;49;125]%N.
Definition b10 : list N := [49;98;56;48;101;49;100;102;99;48;51;48;48;101;52;57;97;51;49;98;54;55;48;50;52;56;101;102;97;56;49;53;54;97;55;49;48;52;51;51;50;51;50;101;57;48;101;97;48;48;99;98;98;100;51;98;100;98;50;102;51;99;101;56]%N.
Definition b11 : list N := [110;45;50]%N.
Definition b12 : list N := [123;34;97;34;58;49;125;120]%N.
Definition b13 : list N := [65;117;116;104;111;114;105;122;97;116;105;111;110]%N.
Definition b14 : list N := [66;97;115;105;99;32;89;109;57;105;79;110;66;104;79;110;78;122]%N.

Definition ex_cfg : hmac_cfg := {| h_sig := b0; h_ts := b1; h_nonce := b2; h_tol := (300000000000)%Z; h_static := [[107;49]%N]; h_versions := [{| v_value := b3; v_from := (0)%Z; v_until := (Some (5)%Z) |}] |}.
Definition ex_req : hreq := {| q_method := b4; q_path := b5; q_headers := [(b0, [b6]); (b1, [b7]); (b2, [b8])]; q_body := b9 |}.        (* signature upper-case and padded: still valid *)
Definition ex_tampered : hreq := {| q_method := b4; q_path := b5; q_headers := [(b0, [b10]); (b1, [b7]); (b2, [b11])]; q_body := b12 |}.   (* one byte appended to the body after signing *)
Definition ex_basic : hreq := {| q_method := b4; q_path := [47;98]%N; q_headers := [(b13, [b14])]; q_body := (@nil N) |}.
Definition ex_rc : route_cfg :=
  {| rc_basic := []; rc_forward := false; rc_hmac := Some ex_cfg; rc_targets := [[97]%N; [98]%N]; rc_max_body := 1000 |}.
Definition ex_or (enq : list bool) : oracle :=
  {| o_rate_ok := true; o_backpressure := None; o_body_err := false; o_fwd := FOther; o_hdr_fit := true; o_enq := enq |}.

Example ex_configured : hmac_configured ex_cfg.
Proof. reflexivity. Qed.

(** Each of the two requests is taken through Verify once: its headers, and the one HMAC-SHA256
    evaluation that decides its signature.  What is left of Verify is the nonce step, so the examples
    below only evaluate the nonce cache. *)
Lemma ex_req_headers : verify_pre ex_cfg ex_req = Some (trim_space b6, b7, b8, 1700000000).
Proof. vm_compute. reflexivity. Qed.

Lemma ex_req_signed : signed_by sha256 hmac_sha256 ex_cfg ex_req (trim_space b6) b7 1700000000 = true.
Proof. vm_compute. reflexivity. Qed.

Lemma ex_req_verify c now :
  verify sha256 hmac_sha256 ex_cfg c now ex_req = cache_admit b8 (1700000000 * sec) (h_tol ex_cfg) now c.
Proof.
  rewrite verify_eq, ex_configured, ex_req_headers, ex_req_signed. cbn zeta.
  rewrite andb_true_r. symmetry. apply surjective_pairing.
Qed.

Lemma ex_tampered_headers : verify_pre ex_cfg ex_tampered = Some (b10, b7, b11, 1700000000).
Proof. vm_compute. reflexivity. Qed.

Lemma ex_tampered_unsigned : signed_by sha256 hmac_sha256 ex_cfg ex_tampered b10 b7 1700000000 = false.
Proof. vm_compute. reflexivity. Qed.

Lemma ex_tampered_verify c now :
  verify sha256 hmac_sha256 ex_cfg c now ex_tampered =
  (false, snd (cache_admit b11 (1700000000 * sec) (h_tol ex_cfg) now c)).
Proof.
  rewrite verify_eq, ex_configured, ex_tampered_headers, ex_tampered_unsigned. cbn zeta.
  rewrite andb_false_r. reflexivity.
Qed.

(** accepted at both window edges, refused one nanosecond outside, refused when replayed *)
Example ex_verify_accepts :
  fst (verify_c ex_cfg [] (1700000000 * sec) ex_req) = true /\
  fst (verify_c ex_cfg [] (1700000000 * sec + 300 * sec) ex_req) = true /\
  fst (verify_c ex_cfg [] (1700000000 * sec - 300 * sec) ex_req) = true /\
  fst (verify_c ex_cfg [] (1700000000 * sec + 300 * sec + 1) ex_req) = false /\
  fst (verify_c ex_cfg [] (1700000000 * sec - 300 * sec - 1) ex_req) = false /\
  fst (verify_c ex_cfg (snd (verify_c ex_cfg [] (1700000000 * sec) ex_req)) (1700000000 * sec + 300 * sec) ex_req) = false /\
  fst (verify_c ex_cfg [] (1700000000 * sec) ex_tampered) = false.
Proof. unfold verify_c. rewrite !ex_req_verify, ex_tampered_verify. vm_compute. repeat split. Qed.

(** the handler: 202 + both targets; store refuses the second target: 503 + the documented prefix;
    tampered body: 401 and nothing enqueued *)
Example ex_serve :
  fst (serve_c (RRoute ex_rc) [] (1700000000 * sec) ex_req (ex_or [])) = (202, [[97]%N; [98]%N]) /\
  fst (serve_c (RRoute ex_rc) [] (1700000000 * sec) ex_req (ex_or [true; false])) = (503, [[97]%N]) /\
  fst (serve_c (RRoute ex_rc) [] (1700000000 * sec) ex_tampered (ex_or [])) = (401, []).
Proof.
  unfold serve_c.
  (* the oracle lets the request reach the auth stages, the route has no Basic users, the body fits *)
  rewrite !serve_after_body by (repeat split; try reflexivity; apply Z.leb_le; reflexivity).
  change (rc_hmac ex_rc) with (Some ex_cfg). cbv iota beta.
  rewrite ex_req_verify, ex_tampered_verify. vm_compute. repeat split.
Qed.

Example ex_basic_valid :
  basic_valid [([97;108;105;99;101]%N, [115;51;99;114;101;116]%N); ([98;111;98]%N, [112;97;58;115;115]%N)] (q_headers ex_basic).
Proof. exists [98;111;98]%N, [112;97;58;115;115]%N. vm_compute. split; reflexivity. Qed.
