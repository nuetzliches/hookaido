(** Lemmas about Model/Base64.v (C07): StdEncoding round trip for every byte string. *)
From Coq Require Import List NArith ZArith Bool Lia.
From HK Require Import Model.Headers Model.Base64 Proofs.ListFacts.
Import ListNotations.
Open Scope N_scope.

(** the alphabet is a table of 64 entries: facts about it are checked entry by entry *)
Lemma all64 : forall P : N -> bool,
  forallb P (map N.of_nat (seq 0 64)) = true -> forall i, i < 64 -> P i = true.
Proof.
  intros P H i Hi. rewrite forallb_forall in H. apply H.
  apply in_map_iff. exists (N.to_nat i). split; [lia | apply in_seq; lia].
Qed.

Lemma dec6_enc6 : forall i, i < 64 -> dec6 (enc6 i) = Some i.
Proof.
  intros i H.
  pose proof (all64 (fun i => match dec6 (enc6 i) with Some j => j =? i | None => false end)
                    ltac:(vm_compute; reflexivity) i H) as E.
  cbv beta in E. destruct (dec6 (enc6 i)); try discriminate. apply N.eqb_eq in E. congruence.
Qed.

Lemma enc6_is_b64 : forall i, i < 64 -> is_b64 (enc6 i) = true.
Proof. intros i H. unfold is_b64. rewrite dec6_enc6; auto. Qed.

Lemma b64_not_special : forall c, is_b64 c = true -> (c =? pad) = false /\ is_newline c = false.
Proof.
  intros c H. unfold is_newline.
  destruct (N.eqb_spec c pad) as [->|_]; [discriminate H|].
  destruct (N.eqb_spec c 13) as [->|_]; [discriminate H|].
  destruct (N.eqb_spec c 10) as [->|_]; [discriminate H|]. auto.
Qed.

Lemma enc6_neq_pad : forall i, i < 64 -> (enc6 i =? pad) = false.
Proof. intros i H. apply b64_not_special, enc6_is_b64, H. Qed.

Lemma enc6_not_newline : forall i, i < 64 -> is_newline (enc6 i) = false.
Proof. intros i H. apply b64_not_special, enc6_is_b64, H. Qed.

Lemma pad_not_newline : is_newline pad = false.
Proof. reflexivity. Qed.

Lemma sextets_lt : forall n, n < 16777216 ->
  n / 262144 < 64 /\ (n / 4096) mod 64 < 64 /\ (n / 64) mod 64 < 64 /\ n mod 64 < 64.
Proof.
  intros n H. repeat split; try (apply N.mod_lt; discriminate).
  apply N.div_lt_upper_bound; [discriminate | exact H].
Qed.

Lemma div_mod_pieces : forall m hi lo, lo < m -> (hi * m + lo) / m = hi /\ (hi * m + lo) mod m = lo.
Proof.
  intros m hi lo H. rewrite (N.mul_comm hi m).
  split; symmetry; [apply N.div_unique with lo | apply N.mod_unique with hi]; auto.
Qed.

(** the sextets are the digits of the group in base 64 *)
Lemma sextets_base64 : forall x y z w n, y < 64 -> z < 64 -> w < 64 ->
  n = ((x * 64 + y) * 64 + z) * 64 + w ->
  n / 262144 = x /\ (n / 4096) mod 64 = y /\ (n / 64) mod 64 = z /\ n mod 64 = w.
Proof.
  intros x y z w n Hy Hz Hw ->.
  change 262144 with (64 * (64 * 64)). change 4096 with (64 * 64).
  rewrite <- !N.div_div by discriminate.
  destruct (div_mod_pieces 64 ((x * 64 + y) * 64 + z) w Hw) as [-> ->].
  destruct (div_mod_pieces 64 (x * 64 + y) z Hz) as [-> ->].
  destruct (div_mod_pieces 64 x y Hy) as [-> ->]. auto.
Qed.

(** Sextet boundaries cut the three bytes into pieces of 6+2, 4+4 and 2+6 bits; the two
    middle sextets are made of neighbouring pieces. *)
Lemma bytes_of_pieces : forall a1 a0 b1 b0 c1 c0,
  a1 < 64 -> a0 < 4 -> b1 < 16 -> b0 < 16 -> c1 < 4 -> c0 < 64 ->
  (a1 * 4 + (a0 * 16 + b1) / 16) mod 256 = a1 * 4 + a0 /\
  (((a0 * 16 + b1) mod 16) * 16 + (b0 * 4 + c1) / 4) mod 256 = b1 * 16 + b0 /\
  (((b0 * 4 + c1) mod 4) * 64 + c0) mod 256 = c1 * 64 + c0.
Proof.
  intros a1 a0 b1 b0 c1 c0 Ha1 Ha0 Hb1 Hb0 Hc1 Hc0.
  destruct (div_mod_pieces 16 a0 b1 Hb1) as [-> ->]. destruct (div_mod_pieces 4 b0 c1 Hc1) as [-> ->].
  rewrite !N.mod_small by lia. auto.
Qed.

Lemma pieces : forall m x, m <> 0 -> exists hi lo, x = hi * m + lo /\ lo < m.
Proof.
  intros m x Hm. exists (x / m), (x mod m). split; [rewrite N.mul_comm; apply N.div_mod | apply N.mod_lt]; auto.
Qed.

Lemma quantum_roundtrip : forall a b c n, a < 256 -> b < 256 -> c < 256 ->
  n = a * 65536 + b * 256 + c ->
  let x := n / 262144 in let y := (n / 4096) mod 64 in let z := (n / 64) mod 64 in let w := n mod 64 in
  (x < 64 /\ y < 64 /\ z < 64 /\ w < 64) /\
  (x * 4 + y / 16) mod 256 = a /\ ((y mod 16) * 16 + z / 4) mod 256 = b /\ ((z mod 4) * 64 + w) mod 256 = c.
Proof.
  intros a b c n Ha Hb Hc Hn. cbv zeta. split; [apply sextets_lt; lia|].
  destruct (pieces 4 a) as [a1 [a0 [-> Ha0]]]; [discriminate|].
  destruct (pieces 16 b) as [b1 [b0 [-> Hb0]]]; [discriminate|].
  destruct (pieces 64 c) as [c1 [c0 [-> Hc0]]]; [discriminate|].
  destruct (sextets_base64 a1 (a0 * 16 + b1) (b0 * 4 + c1) c0 n) as [-> [-> [-> ->]]]; [lia | lia | lia | lia |].
  apply bytes_of_pieces; lia.
Qed.

Lemma decode_q_full : forall x y z w rest, x < 64 -> y < 64 -> z < 64 -> w < 64 ->
  decode_q (enc6 x :: enc6 y :: enc6 z :: enc6 w :: rest) =
  match decode_q rest with
  | Some r => Some ((x * 4 + y / 16) mod 256 :: ((y mod 16) * 16 + z / 4) mod 256 :: ((z mod 4) * 64 + w) mod 256 :: r)
  | None => None
  end.
Proof.
  intros. cbn [decode_q].
  rewrite !dec6_enc6 by auto. rewrite !enc6_neq_pad by auto. reflexivity.
Qed.

Lemma decode_q_pad1 : forall x y z, x < 64 -> y < 64 -> z < 64 ->
  decode_q [enc6 x; enc6 y; enc6 z; pad] =
  Some [(x * 4 + y / 16) mod 256; ((y mod 16) * 16 + z / 4) mod 256].
Proof.
  intros. cbn [decode_q].
  rewrite !dec6_enc6 by auto. rewrite !enc6_neq_pad by auto. rewrite N.eqb_refl. reflexivity.
Qed.

Lemma decode_q_pad2 : forall x y, x < 64 -> y < 64 ->
  decode_q [enc6 x; enc6 y; pad; pad] = Some [(x * 4 + y / 16) mod 256].
Proof.
  intros. cbn [decode_q].
  rewrite !dec6_enc6 by auto. rewrite !N.eqb_refl. reflexivity.
Qed.

Definition wf (bs : bytes) : Prop := Forall (fun c => c < 256) bs.

Lemma wf_bytes_wf : forall s, wf_bytes s = true <-> wf s.
Proof.
  intros s. unfold wf_bytes, wf. rewrite forallb_forall, Forall_forall.
  split; intros H x Hx; apply N.ltb_lt, H, Hx.
Qed.

(** [encode] consumes three elements at a time; [Q] is what is known of each *)
Lemma forall3_ind : forall {A} (Q : A -> Prop) (P : list A -> Prop),
  P [] -> (forall a, Q a -> P [a]) -> (forall a b, Q a -> Q b -> P [a; b]) ->
  (forall a b c tl, Q a -> Q b -> Q c -> P tl -> P (a :: b :: c :: tl)) ->
  forall l, Forall Q l -> P l.
Proof.
  intros A Q P H0 H1 H2 H3. fix IH 2. intros l Hl.
  destruct Hl as [|a l1 Ha [|b l2 Hb [|c tl Hc Hl]]].
  - exact H0.
  - exact (H1 a Ha).
  - exact (H2 a b Ha Hb).
  - exact (H3 a b c tl Ha Hb Hc (IH tl Hl)).
Qed.

(** a short final group is a full one with zero bytes appended, cut after the padding *)
Lemma decode_q_encode : forall bs, wf bs -> decode_q (encode bs) = Some bs.
Proof.
  apply forall3_ind; [|intros a Ha|intros a b Ha Hb|intros a b c tl Ha Hb Hc IH].
  - reflexivity.
  - destruct (quantum_roundtrip a 0 0 (a * 65536) Ha eq_refl eq_refl) as [[Hx [Hy _]] [E1 _]]; [now rewrite !N.add_0_r|].
    cbn [encode]. cbv zeta in *. rewrite decode_q_pad2, E1 by assumption. reflexivity.
  - destruct (quantum_roundtrip a b 0 (a * 65536 + b * 256) Ha Hb eq_refl) as [[Hx [Hy [Hz _]]] [E1 [E2 _]]]; [now rewrite N.add_0_r|].
    cbn [encode]. cbv zeta in *. rewrite decode_q_pad1, E1, E2 by assumption. reflexivity.
  - destruct (quantum_roundtrip a b c _ Ha Hb Hc eq_refl) as [[Hx [Hy [Hz Hw]]] [E1 [E2 E3]]].
    cbn [encode]. cbv zeta in *. rewrite decode_q_full, IH, E1, E2, E3 by assumption. reflexivity.
Qed.

Definition out_char (c : N) : Prop := is_b64 c = true \/ c = pad.

(** every output character is a sextet's letter or the padding *)
Lemma encode_chars : forall P : N -> Prop, (forall i, i < 64 -> P (enc6 i)) -> P pad ->
  forall bs, wf bs -> Forall P (encode bs).
Proof.
  intros P Henc Hpad.
  apply forall3_ind; [|intros a Ha|intros a b Ha Hb|intros a b c tl Ha Hb Hc IH].
  - constructor.
  - destruct (sextets_lt (a * 65536)) as [Hx [Hy _]]; [lia|].
    cbn [encode]. repeat constructor; auto.
  - destruct (sextets_lt (a * 65536 + b * 256)) as [Hx [Hy [Hz _]]]; [lia|].
    cbn [encode]. repeat constructor; auto.
  - destruct (sextets_lt (a * 65536 + b * 256 + c)) as [Hx [Hy [Hz Hw]]]; [lia|].
    cbn [encode]. repeat (constructor; [auto|]). exact IH.
Qed.

Lemma encode_alphabet : forall bs, wf bs -> Forall out_char (encode bs).
Proof.
  apply encode_chars; [|right; reflexivity]. intros i Hi. left. apply enc6_is_b64. exact Hi.
Qed.

(** the encoder emits 4 characters per started 3-byte group *)
Lemma encode_length : forall bs, length (encode bs) = (4 * ((length bs + 2) / 3))%nat.
Proof.
  intros bs. assert (H : Forall (fun _ => True) bs) by (apply Forall_forall; auto).
  revert bs H. apply forall3_ind; try reflexivity. intros a b c tl _ _ _ IH.
  cbn [encode]. cbn [length]. rewrite IH.
  replace (S (S (S (length tl))) + 2)%nat with (1 * 3 + (length tl + 2))%nat by lia.
  rewrite Nat.div_add_l by lia. lia.
Qed.

Theorem b64_roundtrip : forall bs, wf bs -> decode (encode bs) = Some bs.
Proof.
  intros bs Hw. unfold decode. rewrite filter_all.
  - apply decode_q_encode. exact Hw.
  - (* the encoder emits no newline, so the decoder's filter drops nothing *)
    apply Forall_forall, encode_chars; [|rewrite pad_not_newline; reflexivity | exact Hw].
    intros i Hi. rewrite enc6_not_newline by exact Hi. reflexivity.
Qed.

(** examples (padding cases, the empty payload, NUL and 0xFF bytes) *)
Example b64_ex0 : encode [] = [] /\ decode [] = Some [].
Proof. split; reflexivity. Qed.
Example b64_ex1 : encode [0] = [65; 65; 61; 61] /\ decode [65; 65; 61; 61] = Some [0].
Proof. split; vm_compute; reflexivity. Qed.
Example b64_ex2 : encode [255; 0] = [47; 119; 65; 61] /\ decode [47; 119; 65; 61] = Some [255; 0].
Proof. split; vm_compute; reflexivity. Qed.
Example b64_ex3 : decode (encode [104; 0; 255; 10; 13]) = Some [104; 0; 255; 10; 13].
Proof. vm_compute. reflexivity. Qed.
(** strictness: bad character, missing padding, data after padding, URL alphabet *)
Example b64_bad1 : decode [65; 65; 65] = None. Proof. reflexivity. Qed.
Example b64_bad2 : decode [65; 65; 61; 61; 65; 65; 65; 65] = None. Proof. reflexivity. Qed.
Example b64_bad3 : decode [45; 95; 65; 65] = None. Proof. reflexivity. Qed.
Example b64_bad4 : decode [65; 32; 65; 65; 65] = None. Proof. reflexivity. Qed.
Example b64_newline_ok : decode [65; 10; 65; 13; 61; 10; 61; 10] = Some [0]. Proof. vm_compute. reflexivity. Qed.
