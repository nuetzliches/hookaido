(** Lemmas about Model/HeaderValidate.v (C15): ValidateMap accepts exactly the maps whose
    names are non-empty token strings and whose values carry no CR, LF, DEL or other control byte
    except TAB. *)
From Coq Require Import List NArith Bool.
From HK Require Import Model.Headers Model.HeaderValidate Proofs.HeadersProofs.
Import ListNotations.
Open Scope N_scope.

(** Every white-space sequence TrimSpace removes, read from either end, begins with a byte that
    is not a token byte, so nothing is trimmed from a string that is empty or begins (ends) with a
    token byte. *)
Definition head_not_token (p : bytes) : bool :=
  match p with d :: _ => negb (is_token d) | [] => false end.

Lemma space_seqs_heads : forallb head_not_token space_seqs = true.
Proof. vm_compute. reflexivity. Qed.

Lemma space_seqs_rev_heads : forallb head_not_token (map (@rev N) space_seqs) = true.
Proof. vm_compute. reflexivity. Qed.

Definition starts_ok (s : bytes) : bool := match s with c :: _ => is_token c | [] => true end.

Lemma strip_any_none : forall ps s,
  forallb head_not_token ps = true -> starts_ok s = true -> strip_any ps s = None.
Proof.
  induction ps as [|p ps IH]; intros s H Hs; simpl in *; auto.
  apply andb_true_iff in H. destruct H as [H1 H2].
  destruct p as [|d r]; [discriminate|]. destruct s as [|c tl]; simpl; auto.
  destruct (N.eqb_spec d c) as [->|_]; auto.
  simpl in H1, Hs. rewrite Hs in H1. discriminate.
Qed.

Lemma ltrim_with_fix : forall ps fuel s,
  forallb head_not_token ps = true -> starts_ok s = true -> ltrim_with ps fuel s = s.
Proof. intros ps [|f] s H Hs; simpl; auto. rewrite strip_any_none; auto. Qed.

Lemma tokens_start_ok : forall s, forallb is_token s = true -> starts_ok s = true.
Proof. intros [|c tl] H; simpl in *; auto. apply andb_true_iff in H. tauto. Qed.

Lemma trim_space_tokens : forall s, forallb is_token s = true -> trim_space s = s.
Proof.
  intros s H. unfold trim_space.
  assert (L : ltrim s = s) by (apply ltrim_with_fix; [apply space_seqs_heads | apply tokens_start_ok, H]).
  rewrite L. unfold rtrim. rewrite ltrim_with_fix; [apply rev_involutive | apply space_seqs_rev_heads |].
  apply tokens_start_ok. rewrite forallb_forall in *. intros x Hx. apply H, in_rev, Hx.
Qed.

Theorem validate_entry_spec : forall e, validate_entry e = entry_ok e.
Proof.
  intros [raw v]. unfold validate_entry, entry_ok. simpl.
  destruct (valid_field_name raw) eqn:Hv.
  - (* a valid name is its own trimmed form *)
    pose proof Hv as [Hn Ht]%andb_prop. rewrite (trim_space_tokens raw Ht), beq_refl, Hv.
    apply negb_true_iff in Hn. rewrite Hn. reflexivity.
  - (* a name that passes the first two tests is its own trimmed form, and that is not valid *)
    destruct (is_nil (trim_space raw)); auto.
    destruct (beq raw (trim_space raw)) eqn:E; auto.
    apply beq_eq in E. rewrite <- E, Hv. reflexivity.
Qed.

Example validate_ok : validate_map [([88; 45; 65], [118; 9; 32; 200])] = true.
Proof. vm_compute. reflexivity. Qed.
Example validate_bad_name : validate_map [([88; 32; 65], [118])] = false.
Proof. vm_compute. reflexivity. Qed.
Example validate_bad_value : validate_map [([88], [118; 10])] = false.
Proof. vm_compute. reflexivity. Qed.
Example validate_padded_name : validate_map [([32; 88], [118])] = false.
Proof. vm_compute. reflexivity. Qed.
