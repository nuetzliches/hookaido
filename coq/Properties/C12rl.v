(** C12 (rate-limit and size-limit part) — token bucket bound, limiter choice, 413 on size.
    Statements, each derived from the lemmas of Proofs/TokenBucketProofs.v and
    Proofs/SizeLimitProofs.v. *)
From Coq Require Import ZArith QArith Qminmax Lqa Lia List Bool.
From HK Require Import Model.Retry Model.TokenBucket Model.SizeLimit
  Proofs.RetryProofs Proofs.TokenBucketProofs Proofs.SizeLimitProofs.
Import ListNotations.
Open Scope Q_scope.

(** 0 <= tokens <= burst after every call sequence (any times, any order) *)
Theorem C12_bucket_inv : forall rps burst now ts,
  let b := fst (run (new_bucket rps burst now) ts) in
  0 <= tb_tokens b /\ tb_tokens b <= tb_burst b /\ tb_burst b = tb_burst (new_bucket rps burst now).
Proof. exact bucket_inv. Qed.

(** The rate clause: for every call sequence with non-decreasing times and every closed window
    [a, c], the limiter admits at most burst + rps * (c - a) of the calls inside the window
    (exact rationals, seconds).  burst and rps are the effective values of newTokenBucketLimiter. *)
Theorem C12_window_bound : forall rps burst now ts a c,
  nondecreasing ts -> a <= c ->
  let b0 := new_bucket rps burst now in
  inject_Z (count_window a c ts (snd (run b0 ts))) <= tb_burst b0 + tb_rate b0 * (c - a).
Proof. exact window_bound. Qed.

(** the same from any later state of the limiter (after any prefix of calls, in any order) *)
Theorem C12_window_bound_after_prefix : forall rps burst now pre ts a c,
  nondecreasing ts -> a <= c ->
  let b0 := new_bucket rps burst now in
  let b := fst (run b0 pre) in
  inject_Z (admitted_in a c b ts) <= tb_burst b0 + tb_rate b0 * (c - a).
Proof.
  intros rps burst now pre ts a c Hs Hac b0 b.
  destruct (new_bucket_ok rps burst now) as (Hv & Hi & _).
  destruct (run_inv pre b0 Hv Hi) as [Hv' Hi']. destruct (run_params pre b0) as [Hr Hb].
  rewrite <- Hr, <- Hb. apply window_bound_from; assumption.
Qed.

(** and from any state satisfying the invariant *)
Theorem C12_window_bound_from : forall ts a c b,
  valid b -> inv b -> nondecreasing ts -> a <= c ->
  inject_Z (admitted_in a c b ts) <= tb_burst b + tb_rate b * (c - a).
Proof. exact window_bound_from. Qed.

(** the clock stands still or steps back: no refill, [last] does not move *)
Theorem C12_backwards_no_refill : forall b t, t <= tb_last b -> refill b t = b.
Proof. exact refill_backwards. Qed.

Theorem C12_no_advance_only_drains : forall ts b, valid b -> inv b ->
  Forall (fun t => t <= tb_last b) ts -> inject_Z (admitted b ts) <= tb_tokens b.
Proof.
  intros ts b Hv Hi HF.
  pose proof (admitted_le_budget ts b (tb_last b) Hv Hi (Qle_refl _) HF) as H. unfold budget in H. lra.
Qed.

(** call times in ANY order: a call at t followed by any calls admits at most
    burst + rate * (latest time seen - max(last, t)) - time that runs backwards earns nothing *)
Theorem C12_segment_bound_any_order : forall b t rest, valid b -> inv b ->
  inject_Z (admitted b (t :: rest)) <=
  tb_burst b + tb_rate b * (max_time (Qmax (tb_last b) t) rest - Qmax (tb_last b) t).
Proof.
  (* after the first call at most [burst] is in hand, counting its token, and [last] is
     max(last, t); the other calls are paid from the budget until the latest time *)
  intros b t rest Hv Hi. destruct (allow_at_step b t Hv Hi) as (Hv1 & Hi1 & Hl1 & Hb1 & _).
  destruct (allow_at_params b t) as [Hr _].
  pose proof (admitted_le_budget rest _ (max_time (Qmax (tb_last b) t) rest) Hv1 Hi1) as H.
  rewrite Hl1 in H. specialize (H (max_time_ge _ _) (max_time_ub _ _)).
  unfold budget in H. rewrite Hr, Hl1 in H. rewrite admitted_cons. lra.
Qed.

(** a call is refused exactly when fewer than one token is there after the refill *)
Theorem C12_refuse_iff : forall b t, snd (allow_at b t) = false <-> tb_tokens (refill b t) < 1.
Proof.
  intros b t. unfold allow_at. cbv zeta. rewrite <- Qltb_true.
  destruct (Qltb (tb_tokens (refill b t)) 1); cbn [snd]; split; congruence.
Qed.

Theorem C12_new_bucket_ok : forall rps burst now,
  valid (new_bucket rps burst now) /\ inv (new_bucket rps burst now) /\
  1 <= tb_burst (new_bucket rps burst now) /\ 0 < tb_rate (new_bucket rps burst now).
Proof. exact new_bucket_ok. Qed.

(** allowIngress: route limiter iff declared, else global, else admit; others untouched *)
Theorem C12_limiter_choice : forall ls r t,
  (forall b, find_route r (l_routes ls) = Some b ->
      snd (allow_ingress ls r t) = snd (allow_at b t) /\
      find_route r (l_routes (fst (allow_ingress ls r t))) = Some (fst (allow_at b t)) /\
      l_global (fst (allow_ingress ls r t)) = l_global ls /\
      (forall r', r' <> r -> find_route r' (l_routes (fst (allow_ingress ls r t))) = find_route r' (l_routes ls))) /\
  (find_route r (l_routes ls) = None -> forall g, l_global ls = Some g ->
      snd (allow_ingress ls r t) = snd (allow_at g t) /\
      l_global (fst (allow_ingress ls r t)) = Some (fst (allow_at g t)) /\
      l_routes (fst (allow_ingress ls r t)) = l_routes ls) /\
  (find_route r (l_routes ls) = None -> l_global ls = None -> allow_ingress ls r t = (ls, true)).
Proof. exact limiter_choice. Qed.

(** through any request sequence each limiter sees exactly its own requests *)
Theorem C12_route_projection : forall reqs ls r b,
  find_route r (l_routes ls) = Some b ->
  decisions_of r reqs (snd (run_ingress ls reqs)) = snd (run b (times_of r reqs)).
Proof.
  induction reqs as [|[k t] rest IH]; intros ls r b Hf; [reflexivity|].
  rewrite run_ingress_cons. cbn [snd decisions_of times_of]. destruct (k =? r)%Z eqn:Ek.
  - apply Z.eqb_eq in Ek. subst k. destruct (limiter_choice ls r t) as [H _].
    destruct (H b Hf) as (Hd & Hf1 & _).
    rewrite run_cons. cbn [snd]. rewrite Hd, (IH _ r _ Hf1). reflexivity.
  - apply Z.eqb_neq in Ek. apply IH. rewrite other_route_untouched by congruence. exact Hf.
Qed.

Theorem C12_global_projection : forall reqs ls g,
  l_global ls = Some g ->
  decisions_global ls reqs (snd (run_ingress ls reqs)) = snd (run g (times_global ls reqs)).
Proof. intros reqs ls g Hg. apply (global_projection_from reqs ls ls g); [reflexivity | exact Hg]. Qed.

Theorem C12_too_large_body : forall rate_ok body max_body hs max_headers,
  rate_ok = true -> (max_body < body)%Z -> size_verdict rate_ok body max_body hs max_headers = V413.
Proof.
  intros r body mb hs mh -> H. unfold size_verdict, body_fits.
  rewrite (proj2 (Z.leb_gt body mb) H). reflexivity.
Qed.

Theorem C12_too_large_headers : forall rate_ok body max_body hs max_headers,
  rate_ok = true -> (body <= max_body)%Z -> (0 < max_headers)%Z -> (max_headers < header_kv_size hs)%Z ->
  size_verdict rate_ok body max_body hs max_headers = V413.
Proof.
  intros r body mb hs mh -> Hb Hm H. rewrite size_verdict_pos by exact Hm.
  rewrite (proj2 (Z.ltb_ge mb body) Hb), (proj2 (Z.ltb_lt mh (header_kv_size hs)) H). reflexivity.
Qed.

Theorem C12_admit_iff : forall rate_ok body max_body hs max_headers, (0 < max_headers)%Z ->
  (size_verdict rate_ok body max_body hs max_headers = VAdmit <->
   rate_ok = true /\ (body <= max_body)%Z /\ (header_kv_size hs <= max_headers)%Z).
Proof.
  intros r body mb hs mh Hm. rewrite size_verdict_pos by exact Hm.
  destruct r; cbn [negb]; [|split; [discriminate | intros [H _]; discriminate]].
  destruct (Z.ltb_spec mb body); [split; [discriminate | lia]|].
  destruct (Z.ltb_spec mh (header_kv_size hs)); [split; [discriminate | lia]|].
  split; [intros _; auto | reflexivity].
Qed.

Theorem C12_refusal_enqueues_nothing : forall v targets, v <> VAdmit -> enqueues v targets = 0%Z.
Proof. intros [| |] targets H; [reflexivity | reflexivity | congruence]. Qed.

Print Assumptions C12_bucket_inv.
Print Assumptions C12_window_bound.
Print Assumptions C12_window_bound_after_prefix.
Print Assumptions C12_backwards_no_refill.
Print Assumptions C12_no_advance_only_drains.
Print Assumptions C12_segment_bound_any_order.
Print Assumptions C12_limiter_choice.
Print Assumptions C12_route_projection.
Print Assumptions C12_global_projection.
Print Assumptions C12_too_large_body.
Print Assumptions C12_admit_iff.
