(** C14 - operator queue mutations touch exactly what they name: the request layer in front of the
    store (Admin API handlers and MCP tools, Model/ManageGlue.v) composed with the store theorems of
    Properties/C14.v.  Statements, each derived from the lemmas of Proofs/ManageGlueProofs.v. *)
From Coq Require Import List ZArith NArith Bool Lia.
From HK Require Import Model.Queue Model.Publish Model.ManageGlue Proofs.QueueBase Proofs.QueueInv
  Proofs.QueueManage Proofs.ManageGlueProofs.
Import ListNotations.
Open Scope Z_scope.

(** (a) parseManageIDs / parseIDs: accepted iff 1 <= |raw| <= 1000 and no raw id is blank after trimming (the cap
    is on the raw list, before de-duplication); the ids handed to the store are the trimmed,
    first-occurrence de-duplicated list - non-empty, pairwise distinct, exactly the trimmed raw ids - and the
    store's own normalisation leaves that list as it is *)
Theorem C14admin_ids_accepted_spec : forall raw,
  (forall idl, parse_manage_ids raw = Some idl ->
     1 <= Z.of_nat (length raw) <= 1000 /\ no_blank raw
     /\ idl = dedup_first (trims raw) [] /\ idl <> [] /\ NoDup idl
     /\ (forall i, In i idl <-> exists r, In r raw /\ trimmed_id r = Some i)
     /\ norm_ids (store_ids idl) [] = idl)
  /\ (1 <= Z.of_nat (length raw) <= 1000 -> no_blank raw -> exists idl, parse_manage_ids raw = Some idl)
  /\ (parse_manage_ids raw = None <-> ~ (1 <= Z.of_nat (length raw) <= 1000) \/ exists r, In r raw /\ trimmed_id r = None).
Proof.
  intros raw. unfold parse_manage_ids, admin_max_list_limit.
  destruct (parse_ids_with_cases 1000 raw) as [[R [NB [NE ->]]] | [B ->]].
  - split; [|split; [eauto|]].
    + intros idl [= <-]. split; [exact R|]. split; [exact NB|]. split; [reflexivity|]. split; [exact NE|].
      split; [apply dedup_first_NoDup|]. split; [intros i; apply parsed_ids_In|]. apply norm_store_ids, dedup_first_NoDup.
    + split; [discriminate|]. intros [NR | [r [Hr Er]]]; [contradiction | destruct (NB r Hr Er)].
  - split; [discriminate|]. split; [|tauto].
    intros R NB. destruct B as [NR | [r [Hr Er]]]; [contradiction | destruct (NB r Hr Er)].
Qed.

Theorem C14admin_mcp_ids_same_parser : forall raw, mcp_parse_ids raw = parse_manage_ids raw.
Proof. reflexivity. Qed.

(** (a) composed with the store: through an id endpoint exactly the messages whose id is one of the trimmed
    raw ids and whose state the operation is defined for change, as the operation defines; every other
    message is identical; nothing appears; the count is the number selected *)
Theorem C14admin_ids_selection_exact : forall now k raw idl s s' r,
  Inv s -> parse_manage_ids raw = Some idl -> step_manage now k (store_ids idl) s = (s', r) ->
  let sel m := raw_names raw (m_id m) && allowed_from k (m_st m) in
  (forall m, In m (msgs s) -> find_id (m_id m) (msgs s') = if sel m then manage_effect now k m else Some m)
  /\ incl (ids (msgs s')) (ids (msgs s))
  /\ exists n matched, r = RCount n matched false /\ n = Z.of_nat (length (filter sel (msgs s))).
Proof. exact ids_selection_exact. Qed.

(** the whole id endpoint (POST /messages/cancel|requeue|resume, /dlq/requeue|delete): a 200 answer carries the
    number of messages changed, which is the number of named messages in an allowed state *)
Theorem C14admin_ids_end_to_end : forall x now k q raw s s' r,
  Inv s -> admin_request x now (EpIds k) q (BIds (IBIds raw)) s = (s', r) -> status_of r = 200 ->
  exists idl n, parse_manage_ids raw = Some idl /\ r = HIdsOk n
    /\ n = changed_count (msgs s) (msgs s')
    /\ n = Z.of_nat (length (filter (fun m => raw_names raw (m_id m) && allowed_from k (m_st m)) (msgs s)))
    /\ (forall m, In m (msgs s) ->
          find_id (m_id m) (msgs s') = if raw_names raw (m_id m) && allowed_from k (m_st m) then manage_effect now k m else Some m)
    /\ incl (ids (msgs s')) (ids (msgs s)).
Proof.
  intros x now k q raw s s' r I H Hs. unfold admin_request in H. cbn [decide] in H.
  pose proof (serve_inv _ _ _ _ _ H) as D. destruct r as [st g | n | m n p].
  - destruct D as [D _]. apply decide_ids_reject_status in D. contradiction.
  - destruct D as [k0 [idl0 D]]. rewrite D in H.
    destruct (decide_ids_call _ _ _ _ _ _ D) as (raw0 & idl & [= <-] & P & [= <- ->]).
    destruct (response_counts_ids _ _ _ _ _ _ I H) as [[mt E] Hc].
    destruct (ids_selection_exact _ _ _ _ _ _ _ I P E) as [Hf [Hi [n' [mt' [[= <- <-] En]]]]].
    exists idl, n. repeat split; assumption.
  - destruct D as [k0 [f D]]. apply decide_ids_call in D. destruct D as (raw0 & idl & _ & _ & [=]).
Qed.

(** (b) any refusal - 400, 401, 404, 405 of the Admin API, an error result of an MCP tool - makes no store call
    and leaves the queue unchanged *)
Theorem C14admin_rejected_no_effect : forall x now e q b s s' st c,
  admin_request x now e q b s = (s', HErr st c) -> decide x e q b (msgs s) = DReject st c /\ s' = s.
Proof. intros x now e q b s s' st c H. exact (serve_inv _ _ _ _ _ H). Qed.

Theorem C14admin_rejected_no_effect_mcp : forall e now t s s' st c,
  mcp_request e now t s = (s', HErr st c) -> mcp_decide e t (msgs s) = DReject st c /\ s' = s.
Proof. intros e now t s s' st c H. exact (serve_inv _ _ _ _ _ H). Qed.

Theorem C14admin_unauthorized_401 : forall x e q b ms, h_auth q = false -> decide x e q b ms = DReject 401 GUnauthorized.
Proof.
  intros x e q b ms Ha. destruct e as [k | k | k app ep]; destruct b; simpl;
    unfold decide_ids, decide_filter, decide_scoped_filter, gate; rewrite Ha; reflexivity.
Qed.

Theorem C14admin_wrong_method_405 : forall x e q b ms,
  h_auth q = true -> h_post q = false ->
  match e with EpScopedFilter _ (LValid _) (LValid _) => True | EpScopedFilter _ _ _ => False | _ => True end ->
  decide x e q b ms = DReject 405 GMethodNotAllowed.
Proof.
  intros x e q b ms Ha Hp He. destruct e as [k | k | k app ep]; destruct b; simpl;
    unfold decide_ids, decide_filter, decide_scoped_filter, gate; rewrite Ha, Hp; try reflexivity.
  (* the endpoint-scoped handler looks at its two labels before the method *)
  all: destruct app; try contradiction; destruct ep; try contradiction; reflexivity.
Qed.

Theorem C14admin_ids_bad_request_400 : forall x k q raw ms,
  h_auth q = true -> h_post q = true -> parse_audit x (h_audit q) <> None -> parse_manage_ids raw = None ->
  decide_ids x k q (IBIds raw) ms = DReject 400 (GPub CInvalidBody).
Proof.
  intros x k q raw ms Ha Hp A P. unfold decide_ids. rewrite (gate_pass _ _ Ha Hp), P.
  destruct (parse_audit x (h_audit q)) as [[[rs ac] rq]|]; [reflexivity | contradiction].
Qed.

Theorem C14admin_ids_missing_reason_400 : forall x k q body ms,
  h_auth q = true -> h_post q = true -> parse_audit x (h_audit q) = None ->
  decide_ids x k q body ms = DReject 400 (GPub CAuditReason).
Proof. intros x k q body ms Ha Hp A. unfold decide_ids. rewrite (gate_pass _ _ Ha Hp), A. reflexivity. Qed.

(** (c) parseMessageManageFilter: limit 0 -> 100, negative -> refused, > 1000 -> 1000; composed with the
    store's eff_limit the effective limit is: default 100 when absent/0, min(limit, 1000) otherwise *)
Theorem C14admin_limit_spec : forall raw,
  (raw < 0 -> admin_limit raw = None) /\ (0 <= raw -> admin_limit raw = Some (norm_limit raw)).
Proof. exact admin_limit_spec. Qed.

Theorem C14admin_limit_reaches_store : forall raw lim,
  admin_limit raw = Some lim ->
  0 <= raw /\ lim = (if raw =? 0 then 100 else Z.min raw 1000)
  /\ eff_limit lim = (if raw =? 0 then 100 else Z.min raw 1000) /\ 1 <= lim <= 1000.
Proof.
  intros raw lim H. destruct (admin_limit_some _ _ H) as [L ->]. pose proof (norm_limit_range raw L) as R.
  split; [exact L|]. split; [reflexivity|]. split; [apply eff_limit_fixed|]; exact R.
Qed.

Theorem C14admin_parse_filter_refuses : forall allowed b,
  (fb_limit b < 0 -> parse_filter allowed b = None)
  /\ (fb_state b = RsUnknown -> parse_filter allowed b = None)
  /\ (forall x, fb_state b = RsKnown x -> st_in x allowed = false -> parse_filter allowed b = None)
  /\ (fb_before b = TBad -> parse_filter allowed b = None).
Proof. exact parse_filter_refuses. Qed.

(** (c) end to end, POST /messages/<verb>_by_filter: an accepted request calls the store with the endpoint's
    operation, the normalised limit, a state criterion inside the endpoint's set (or none), the trimmed
    target; the selection is the newest-first prefix of at most that limit of exactly the messages matching
    every criterion from an allowed state ([filter_call_ok] spells this out) *)
Theorem C14admin_filter_glue_spec : forall x k q body c,
  decide_filter x k q body = DCall c ->
  exists b f, body = FBOk b /\ c = SCFilter k f
    /\ 0 <= fb_limit b
    /\ f_limit f = norm_limit (fb_limit b) /\ eff_limit (f_limit f) = norm_limit (fb_limit b)
    /\ 1 <= norm_limit (fb_limit b) <= 1000
    /\ match fb_state b with
       | RsBlank => f_state f = None
       | RsKnown x => f_state f = Some x /\ allowed_from (fk_kind k) x = true
       | RsUnknown => False
       end
    /\ f_target f = trimmed_id (fb_target b) /\ f_preview f = fb_preview b /\ time_of (fb_before b) = Some (f_before f)
    /\ forall l,
         filter_select (fk_kind k) f l
         = map m_id (firstn (Z.to_nat (norm_limit (fb_limit b)))
                            (sort_by m_recv false (filter (fun m => filt_match f m && allowed_from (fk_kind k) (m_st m)) l)))
         /\ Z.of_nat (length (filter_select (fk_kind k) f l)) <= norm_limit (fb_limit b)
         /\ (forall i, In i (filter_select (fk_kind k) f l) ->
               exists m, In m l /\ m_id m = i /\ filt_match f m = true /\ allowed_from (fk_kind k) (m_st m) = true).
Proof.
  intros x k q body c H. destruct (decide_filter_call _ _ _ _ _ H) as (b & p & route & -> & P & ->).
  exists b, (mk_store_filt route p). split; [reflexivity|]. split; [reflexivity|]. exact (parsed_filter_call_ok k b p route P).
Qed.

(** the endpoint-scoped twin additionally pins the route to the one the managed endpoint owns *)
Theorem C14admin_scoped_filter_glue_spec : forall x k app ep q body c,
  decide_scoped_filter x k app ep q body = DCall c ->
  exists b f a e rt, body = FBOk b /\ c = SCFilter k f /\ filter_call_ok k b f
                     /\ app = LValid a /\ ep = LValid e /\ find_endpoint x a e = Some rt /\ f_route f = Some (r_path rt).
Proof.
  intros x k app ep q body c H.
  destruct (decide_scoped_filter_call _ _ _ _ _ _ _ H) as (a & e & rt & b & p & -> & -> & F & -> & P & ->).
  exists b, (mk_store_filt (Some (r_path rt)) p), a, e, rt.
  split; [reflexivity|]. split; [reflexivity|]. split; [apply parsed_filter_call_ok; exact P|]. repeat split. exact F.
Qed.

(** the MCP by-filter tools: limit absent -> 100, otherwise it must already be within 1..1000 (0, negative
    and > 1000 are refused rather than defaulted / clamped); everything else as for the Admin API *)
Theorem C14admin_mcp_filter_glue_spec : forall e k a c,
  mcp_decide_filter e k a = DCall c ->
  exists f, c = SCFilter k f
    /\ mcp_limit (mf_limit a) = Some (f_limit f) /\ f_limit f = mcp_norm_limit (mf_limit a)
    /\ eff_limit (f_limit f) = f_limit f /\ 1 <= f_limit f <= 1000
    /\ match mf_state a with
       | RsBlank => f_state f = None
       | RsKnown x => f_state f = Some x /\ allowed_from (fk_kind k) x = true
       | RsUnknown => False
       end
    /\ f_target f = trimmed_id (mf_target a) /\ f_preview f = mf_preview a
    /\ forall l,
         filter_select (fk_kind k) f l
         = map m_id (firstn (Z.to_nat (f_limit f))
                            (sort_by m_recv false (filter (fun m => filt_match f m && allowed_from (fk_kind k) (m_st m)) l)))
         /\ Z.of_nat (length (filter_select (fk_kind k) f l)) <= f_limit f.
Proof.
  intros e k a c H. destruct (mcp_decide_filter_call _ _ _ _ H) as (p & route & P & ->).
  destruct (mcp_parse_filter_some _ _ _ P) as (_ & _ & El & Es & _ & _ & _ & Et & Ep & _).
  destruct (mcp_limit_reaches_store _ _ El) as [En [Ef R]].
  destruct (store_filt_ok (fk_kind k) _ route p _ (mcp_filter_tool_states_spec k) Es R) as [_ [Hst Hsel]].
  exists (mk_store_filt route p). split; [reflexivity|]. split; [exact El|]. split; [exact En|]. split; [exact Ef|].
  split; [exact R|]. split; [exact Hst|]. split; [exact Et|]. split; [exact Ep|].
  intros l. destruct (Hsel l) as [H1 [H2 _]]. split; [exact H1 | exact H2].
Qed.

Theorem C14admin_mcp_limit_spec : forall l lim,
  mcp_limit l = Some lim <-> (l = MLAbsent /\ lim = 100) \/ (exists n, l = MLInt n /\ 1 <= n <= 1000 /\ lim = n).
Proof. exact mcp_limit_spec. Qed.

(** a state outside the endpoint's allowed set is refused with 400 - not a silently empty or wider selection *)
Theorem C14admin_filter_state_outside_400 : forall x k q b s,
  h_auth q = true -> h_post q = true -> fb_state b = RsKnown s -> allowed_from (fk_kind k) s = false ->
  decide_filter x k q (FBOk b) = DReject 400 (GPub CInvalidBody).
Proof.
  intros x k q b s Ha Hp Es Hs. apply filter_bad_request_400; try assumption.
  apply (proj1 (proj2 (proj2 (parse_filter_refuses _ b))) s Es). rewrite filter_endpoint_states_spec. exact Hs.
Qed.

Theorem C14admin_filter_bad_request_400 : forall x k q b,
  h_auth q = true -> h_post q = true -> parse_filter (filter_endpoint_states k) b = None ->
  decide_filter x k q (FBOk b) = DReject 400 (GPub CInvalidBody).
Proof. exact filter_bad_request_400. Qed.

Theorem C14admin_scoped_filter_bad_request_refused : forall x k app ep q b,
  parse_filter (filter_endpoint_states k) b = None ->
  exists st c, decide_scoped_filter x k app ep q (FBOk b) = DReject st c.
Proof.
  intros x k app ep q b P. unfold decide_scoped_filter. rewrite P.
  destruct (h_auth q); simpl; [|eauto]. destruct app as [| |a]; destruct ep as [| |e]; eauto.
  destruct (h_post q); simpl; [|eauto]. destruct (find_endpoint x a e); eauto.
Qed.

Theorem C14admin_mcp_filter_refuses : forall allowed a,
  (forall n, mf_limit a = MLInt n -> n <= 0 \/ 1000 < n -> mcp_parse_filter allowed a = None)
  /\ (forall x, mf_state a = RsKnown x -> st_in x allowed = false -> mcp_parse_filter allowed a = None).
Proof.
  intros allowed a. split.
  - intros n El Hn. destruct (mcp_parse_filter allowed a) as [p|] eqn:P; [|reflexivity].
    destruct (mcp_parse_filter_some _ _ _ P) as [_ [_ [L _]]]. rewrite El in L. apply mcp_limit_spec in L.
    destruct L as [[[=] _] | [m [[= <-] [R _]]]]. lia.
  - intros x Es Hx. destruct (mcp_parse_filter allowed a) as [p|] eqn:P; [|reflexivity].
    destruct (mcp_parse_filter_some _ _ _ P) as [_ [_ [_ [S _]]]]. rewrite Es, (parse_state_outside _ _ Hx) in S. discriminate.
Qed.

(** (d) the numbers in the response are the store's RCount numbers; they equal the number of messages
    changed; preview reports matched and changes nothing *)
Theorem C14admin_response_counts_ids : forall now k idl s s' n,
  Inv s -> serve now (DCall (SCIds k idl)) s = (s', HIdsOk n) ->
  (exists matched, step_manage now k idl s = (s', RCount n matched false))
  /\ n = changed_count (msgs s) (msgs s').
Proof. exact response_counts_ids. Qed.

Theorem C14admin_response_counts_filter : forall now k f s s' m n p,
  Inv s -> serve now (DCall (SCFilter k f)) s = (s', HFilterOk m n p) ->
  step_manage_f now (fk_kind k) f s = (s', RCount n m p)
  /\ p = f_preview f
  /\ m = Z.of_nat (length (filter_select (fk_kind k) f (msgs s)))
  /\ (if p then s' = s /\ n = 0 else n = m /\ n = changed_count (msgs s) (msgs s')).
Proof. exact response_counts_filter. Qed.

Theorem C14admin_preview_reports_real : forall now k f s,
  let fp := mkFilt (f_route f) (f_target f) (f_state f) (f_limit f) (f_before f) true in
  let fr := mkFilt (f_route f) (f_target f) (f_state f) (f_limit f) (f_before f) false in
  exists m n, serve now (DCall (SCFilter k fp)) s = (s, HFilterOk m 0 true)
              /\ snd (serve now (DCall (SCFilter k fr)) s) = HFilterOk m n false
              /\ (Inv s -> n = m).
Proof.
  intros now k f s. cbv zeta. simpl. unfold step_manage_f. simpl.
  eexists. eexists. split; [reflexivity|]. split; [reflexivity|]. intros I.
  destruct (filter_count_is_matched now (fk_kind k)
              (mkFilt (f_route f) (f_target f) (f_state f) (f_limit f) (f_before f) false) s I eq_refl) as [c Hc].
  unfold step_manage_f in Hc. simpl in Hc. injection Hc as H1 H2.
  transitivity c; [exact H1 | symmetry; exact H2].
Qed.

(** (e) the allowed-state sets wired into the handlers and tools are the documented ones
    (cancel: queued, leased, dead; requeue: dead, canceled; resume: canceled; DLQ requeue/delete: dead)
    and coincide with the store's [allowed_from] *)
Theorem C14admin_endpoint_states_documented :
  (forall s, In s (ids_endpoint_states MCancel) <-> s = Queued \/ s = Leased \/ s = Dead)
  /\ (forall s, In s (ids_endpoint_states MRequeue) <-> s = Dead \/ s = Canceled)
  /\ (forall s, In s (ids_endpoint_states MResume) <-> s = Canceled)
  /\ (forall s, In s (ids_endpoint_states MRequeueDead) <-> s = Dead)
  /\ (forall s, In s (ids_endpoint_states MDeleteDead) <-> s = Dead)
  /\ (forall s, In s (filter_endpoint_states FCancel) <-> s = Queued \/ s = Leased \/ s = Dead)
  /\ (forall s, In s (filter_endpoint_states FRequeue) <-> s = Dead \/ s = Canceled)
  /\ (forall s, In s (filter_endpoint_states FResume) <-> s = Canceled).
Proof. repeat split; simpl; intros; intuition congruence. Qed.

Theorem C14admin_endpoint_states_are_allowed_from :
  (forall k s, st_in s (ids_endpoint_states k) = allowed_from k s)
  /\ (forall k s, st_in s (filter_endpoint_states k) = allowed_from (fk_kind k) s)
  /\ (forall k s, st_in s (mcp_ids_tool_states k) = allowed_from k s)
  /\ (forall k s, st_in s (mcp_filter_tool_states k) = allowed_from (fk_kind k) s).
Proof.
  exact (conj ids_endpoint_states_spec (conj filter_endpoint_states_spec (conj mcp_ids_tool_states_spec mcp_filter_tool_states_spec))).
Qed.

Print Assumptions C14admin_ids_accepted_spec.
Print Assumptions C14admin_mcp_ids_same_parser.
Print Assumptions C14admin_ids_selection_exact.
Print Assumptions C14admin_ids_end_to_end.
Print Assumptions C14admin_rejected_no_effect.
Print Assumptions C14admin_rejected_no_effect_mcp.
Print Assumptions C14admin_unauthorized_401.
Print Assumptions C14admin_wrong_method_405.
Print Assumptions C14admin_ids_bad_request_400.
Print Assumptions C14admin_ids_missing_reason_400.
Print Assumptions C14admin_limit_spec.
Print Assumptions C14admin_limit_reaches_store.
Print Assumptions C14admin_parse_filter_refuses.
Print Assumptions C14admin_filter_glue_spec.
Print Assumptions C14admin_scoped_filter_glue_spec.
Print Assumptions C14admin_mcp_filter_glue_spec.
Print Assumptions C14admin_mcp_limit_spec.
Print Assumptions C14admin_filter_state_outside_400.
Print Assumptions C14admin_filter_bad_request_400.
Print Assumptions C14admin_scoped_filter_bad_request_refused.
Print Assumptions C14admin_mcp_filter_refuses.
Print Assumptions C14admin_response_counts_ids.
Print Assumptions C14admin_response_counts_filter.
Print Assumptions C14admin_preview_reports_real.
Print Assumptions C14admin_endpoint_states_documented.
Print Assumptions C14admin_endpoint_states_are_allowed_from.
