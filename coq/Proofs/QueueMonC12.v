(** The C12 monitor (admission by depth and drop policy) is sound for the model.  It takes what a
    successful enqueue evicts, exactly ([evict_spec]), and the monitor's own bookkeeping - which of the
    messages that disappeared it puts down to retention and which to eviction, and the depth it
    computes from that - worked out from the shape of the step. *)
From Coq Require Import List ZArith NArith Bool Lia.
From HK Require Import Model.Queue Model.QueueMon Proofs.ListFacts Proofs.QueueBase Proofs.QueueInv
  Proofs.QueueInvStep Proofs.QueueStep Proofs.QueueAdmit Proofs.QueueMonSound Proofs.QueueMonC02.
Import ListNotations.
Open Scope Z_scope.

(** the active count the memory store's depth rule looks at *)
Definition Afun (c : cfg) (a ad : Z) : Z := if 0 <? c_deliv_age c then Z.max a ad else a.

Lemma mem_full_A c extra a ad : mem_full c extra a ad = (c_max_depth c <? Afun c a ad + extra).
Proof.
  unfold mem_full, Afun. destruct (0 <? c_deliv_age c); cbn [andb].
  - destruct (Z.ltb_spec (c_max_depth c) (a + extra)), (Z.ltb_spec (c_max_depth c) (ad + extra)),
      (Z.ltb_spec (c_max_depth c) (Z.max a ad + extra)); cbn [orb]; try reflexivity; lia.
  - apply orb_false_r.
Qed.

Lemma Afun_sub c a ad j : Afun c (a - j) (ad - j) = Afun c a ad - j.
Proof. unfold Afun. destruct (0 <? c_deliv_age c); lia. Qed.

Lemma mem_plan_loop_count c fuel extra ord l a ad vs0 vs :
  mem_plan_loop c fuel extra ord l a ad vs0 = Some vs ->
  Z.of_nat (length vs) = Z.of_nat (length vs0) + Z.max 0 (Afun c a ad + extra - c_max_depth c).
Proof.
  revert a ad vs0. induction fuel as [|f IH]; cbn [mem_plan_loop]; intros a ad vs0 H; rewrite mem_full_A in H;
    destruct (c_max_depth c <? Afun c a ad + extra) eqn:E; cbn [negb] in H.
  - discriminate.
  - inversion H; subst. apply Z.ltb_ge in E. lia.
  - apply Z.ltb_lt in E. destruct (mem_oldest ord l vs0 None) as [m|]; [|discriminate].
    apply IH in H. rewrite Afun_sub, app_length, Nat2Z.inj_add in H. cbn [length] in H. lia.
  - inversion H; subst. apply Z.ltb_ge in E. lia.
Qed.

Lemma mem_plan_loop_oldest c fuel extra ord l a ad vs0 vs :
  mem_plan_loop c fuel extra ord l a ad vs0 = Some vs -> NoDup (ids l) -> incl (ids l) ord ->
  incl vs0 vs /\
  forall v, In v vs -> ~ In v vs0 ->
    exists mv, In mv l /\ m_id mv = v /\ forall q, In q l -> queuedb q = true -> ~ In (m_id q) vs -> m_recv mv <= m_recv q.
Proof.
  revert a ad vs0. induction fuel as [|f IH]; cbn [mem_plan_loop]; intros a ad vs0 H ND Hcov;
    destruct (negb (mem_full c extra a ad)).
  - inversion H; subst. split; [apply incl_refl | intros v Hv Hn; contradiction].
  - discriminate.
  - inversion H; subst. split; [apply incl_refl | intros v Hv Hn; contradiction].
  - destruct (mem_oldest ord l vs0 None) as [m|] eqn:Eo; [|discriminate].
    pose proof (mem_oldest_min _ _ _ _ _ Eo) as [_ Hmin].
    pose proof (mem_oldest_fresh _ _ _ _ _ Eo) as [Ef | [Hm [Hqm Hn]]]; [discriminate|].
    destruct (IH _ _ _ H ND Hcov) as [Hinc Hold].
    assert (Hinc0 : incl vs0 vs) by (intros z Hz; apply Hinc; apply in_or_app; left; exact Hz).
    split; [exact Hinc0|].
    intros v Hv Hnv. destruct (N.eq_dec v (m_id m)) as [Ev | Nv].
    + subst v. exists m. split; [exact Hm|]. split; [reflexivity|].
      intros q Hq Qq Nq. apply (Hmin (m_id q) q).
      * apply Hcov. unfold ids. apply in_map. exact Hq.
      * apply find_id_In_NoDup; assumption.
      * exact Qq.
      * intros Hin. apply Nq. apply Hinc0. exact Hin.
    + apply Hold; [exact Hv|]. intros Hin. apply in_app_or in Hin. destruct Hin as [Hin | [Hin | []]]; [contradiction | congruence].
Qed.

Lemma sql_make_room_full c fuel need hint l l2 :
  NoDup (ids l) -> sql_make_room c fuel need hint l = Some l2 ->
  exists vs, l2 = apply_pm (pm_remove_ids vs) l /\ queued_ids l vs /\ NoDup vs
             /\ Z.of_nat (length vs) = Z.max 0 (need - c_max_depth c)
             /\ forall v, In v vs -> exists mv, In mv l /\ m_id mv = v
                                      /\ forall q, In q l2 -> queuedb q = true -> m_recv mv <= m_recv q.
Proof.
  intros _. apply sql_make_room_evicts.
Qed.

Definition depth_A (fl : flavour) (c : cfg) (l : list msg) : Z :=
  match fl with Mem => Afun c (active l) (active_deliv l) | Sql => active l end.

Record evict_spec (fl : flavour) (c : cfg) (k : Z) (P : list msg) (vs : list N) : Prop := {
  ev_nodup : NoDup vs;
  ev_queued : queued_ids P vs;
  ev_count : Z.of_nat (length vs)
             = if (0 <? c_max_depth c) && c_drop_oldest c then Z.max 0 (depth_A fl c P + k - c_max_depth c) else 0;
  ev_fits : 0 < c_max_depth c -> c_drop_oldest c = false -> depth_A fl c P + k <= c_max_depth c;
  ev_oldest : forall v, In v vs -> exists mv, In mv P /\ m_id mv = v
                /\ forall q, In q P -> queuedb q = true -> ~ In (m_id q) vs -> m_recv mv <= m_recv q }.

Lemma evict_spec_nil fl c k P : (0 < c_max_depth c -> depth_A fl c P + k <= c_max_depth c) -> evict_spec fl c k P [].
Proof.
  intros H. constructor; [constructor | intros v [] | | auto | intros v []].
  destruct (0 <? c_max_depth c) eqn:E; [|reflexivity]. apply Z.ltb_lt, H in E. destruct (c_drop_oldest c); cbn [andb length]; lia.
Qed.

Lemma mem_plan_full c extra s l vs :
  NoDup (ids l) -> incl (ids l) (order s) -> mem_plan c extra s l = Some vs -> evict_spec Mem c extra l vs.
Proof.
  intros ND Hcov H. unfold mem_plan in H.
  destruct (c_max_depth c <=? 0) eqn:Ed.
  { inversion H; subst. apply evict_spec_nil. apply Z.leb_le in Ed. lia. }
  apply Z.leb_gt in Ed. rewrite mem_full_A in H.
  destruct (c_max_depth c <? Afun c (active l) (active_deliv l) + extra) eqn:Ef; cbn [negb] in H.
  2:{ inversion H; subst. apply evict_spec_nil. intros _. apply Z.ltb_ge in Ef. exact Ef. }
  apply Z.ltb_lt in Ef.
  destruct (c_drop_oldest c) eqn:Edo; cbn [negb] in H; [|discriminate].
  pose proof (mem_plan_loop_count _ _ _ _ _ _ _ _ _ H) as Hc.
  destruct (mem_plan_loop_exact _ _ _ _ _ _ _ _ _ H (NoDup_nil N)) as [NDv [Q _]]; [intros v []|].
  destruct (mem_plan_loop_oldest _ _ _ _ _ _ _ _ _ H ND Hcov) as [_ Hold].
  constructor; [exact NDv | exact Q | | intros _ Hd; congruence |].
  - rewrite (proj2 (Z.ltb_lt _ _) Ed), Edo. unfold depth_A. cbn [andb]. cbn [length] in Hc. lia.
  - intros v Hv. apply Hold; [exact Hv | intros []].
Qed.

Lemma enq_room_evicts fl c k hint s1 l2 :
  NoDup (ids (msgs s1)) -> (fl = Mem -> order_covers s1) -> enq_room fl c k hint s1 = Some l2 ->
  exists vs, l2 = apply_pm (pm_remove_ids vs) (msgs s1) /\ evict_spec fl c k (msgs s1) vs.
Proof.
  intros ND Hcov. unfold enq_room. destruct fl.
  - destruct (mem_plan c k s1 (msgs s1)) as [vs|] eqn:EP; [|discriminate]. intros H. inversion H. exists vs.
    split; [reflexivity | exact (mem_plan_full c k s1 (msgs s1) vs ND (Hcov eq_refl) EP)].
  - assert (Hnil : (0 < c_max_depth c -> active (msgs s1) + k <= c_max_depth c) ->
                   exists vs, msgs s1 = apply_pm (pm_remove_ids vs) (msgs s1) /\ evict_spec Sql c k (msgs s1) vs).
    { intros Hfit. exists []. rewrite remove_nil. split; [reflexivity | apply evict_spec_nil; exact Hfit]. }
    destruct (0 <? c_max_depth c) eqn:Ed.
    2:{ intros H. inversion H; subst. apply Hnil. apply Z.ltb_ge in Ed. lia. }
    destruct (c_drop_oldest c) eqn:Edo.
    + intros Hr. destruct (sql_make_room_evicts _ _ _ _ _ _ Hr) as [vs [E [Q [NDv [Len Hold]]]]]. exists vs. split; [exact E|].
      constructor; [exact NDv | exact Q | | intros _ Hd; congruence |].
      * rewrite Ed, Edo. cbn [andb]. unfold depth_A. rewrite Len. reflexivity.
      * intros v Hv. destruct (Hold v Hv) as [mv [Hmv [Eid Hmin]]]. exists mv. split; [exact Hmv|]. split; [exact Eid|].
        intros q Hq Qq Nq. apply Hmin; [|exact Qq]. rewrite E. apply apply_pm_In. exists q. split; [exact Hq|].
        unfold pm_remove_ids. apply memN_false in Nq. rewrite Nq. reflexivity.
    + destruct (c_max_depth c <? active (msgs s1) + k) eqn:Ef; [discriminate|]. intros H. inversion H; subst.
      apply Hnil. intros _. apply Z.ltb_ge in Ef. exact Ef.
Qed.

Lemma apply_pm_as_filter pm l :
  (forall m m', In m l -> pm m = Some m' -> m' = m) ->
  apply_pm pm l = filter (fun m => match pm m with Some _ => true | None => false end) l.
Proof.
  induction l as [|x tl IH]; intros H; [reflexivity|]. cbn [apply_pm filter].
  assert (Htl : forall m m', In m tl -> pm m = Some m' -> m' = m) by (intros m m' Hm; apply H; right; exact Hm).
  destruct (pm x) as [x'|] eqn:E.
  - rewrite (H x x' (or_introl eq_refl) E). f_equal. apply IH. exact Htl.
  - apply IH. exact Htl.
Qed.

Lemma filter_filter_and (A : Type) (f g : A -> bool) l : filter f (filter g l) = filter (fun x => g x && f x) l.
Proof.
  induction l as [|x tl IH]; [reflexivity|]. cbn [filter]. destruct (g x); cbn [filter andb]; [destruct (f x)|]; rewrite IH; reflexivity.
Qed.

Lemma filter_and_split (A : Type) (f g : A -> bool) l :
  (length (filter (fun m => f m && g m) l) + length (filter (fun m => f m && negb (g m)) l) = length (filter f l))%nat.
Proof.
  induction l as [|y tl IH]; [reflexivity|]. cbn [filter]. destruct (f y), (g y); cbn [andb negb length]; lia.
Qed.

Lemma count_st_partition p (f : msg -> bool) l :
  count_st p (filter f l) + count_st p (filter (fun x => negb (f x)) l) = count_st p l.
Proof.
  unfold count_st. induction l as [|x tl IH]; [reflexivity|]. cbn [filter].
  destruct (f x); cbn [negb filter]; destruct (p (m_st x)); cbn [length]; lia.
Qed.

Lemma count_st_all p l : (forall m, In m l -> p (m_st m) = true) -> count_st p l = Z.of_nat (length l).
Proof. intros H. unfold count_st. rewrite filter_all; [reflexivity | exact H]. Qed.

Lemma memN_ids_filter (f : msg -> bool) l m :
  NoDup (ids l) -> In m l -> memN (m_id m) (map m_id (filter f l)) = f m.
Proof.
  intros ND Hm. destruct (f m) eqn:Ef.
  - apply memN_In. apply in_map. apply filter_In. split; assumption.
  - apply memN_false. intros Hin. apply in_map_iff in Hin. destruct Hin as [m' [Eid Hm']]. apply filter_In in Hm'. destruct Hm' as [Hin' Ef'].
    assert (m' = m) by (apply (nodup_ids_inj l); assumption). subst m'. congruence.
Qed.

Definition isV (vs : list N) (m : msg) : bool := memN (m_id m) vs.

Lemma isV_nil m : isV [] m = false.
Proof. reflexivity. Qed.

Definition inPf (c : cfg) (now : Z) (hint : list N) (s : state) (m : msg) : bool :=
  match prune_pm c now hint s m with Some _ => true | None => false end.

Lemma prune_as_filter c now hint s : msgs (prune c now hint s) = filter (inPf c now hint s) (msgs s).
Proof. rewrite prune_msgs_eq. apply apply_pm_as_filter. intros m m' _ E. apply prune_pm_same in E. exact E. Qed.

Lemma victims_length vs P : NoDup (ids P) -> NoDup vs -> queued_ids P vs -> length (filter (isV vs) P) = length vs.
Proof.
  intros ND NDv Q. rewrite <- (selected_length (fun _ => true) P vs ND NDv).
  - f_equal. apply filter_ext. intros m. symmetry. apply andb_true_r.
  - intros v Hv. destruct (Q v Hv) as [m [A [B _]]]. exists m. auto.
Qed.

Lemma victims_queued vs P m : NoDup (ids P) -> queued_ids P vs -> In m P -> isV vs m = true -> queuedb m = true.
Proof.
  intros ND Q Hm Hv. unfold isV in Hv. apply memN_In in Hv. destruct (Q _ Hv) as [m1 [H1 [Ei Eq]]].
  assert (m1 = m) by (apply (nodup_ids_inj P); assumption). subst. exact Eq.
Qed.

(** victims are queued, hence counted by every depth the rule looks at *)
Lemma depth_A_base fl c vs P (pe : msg -> bool) :
  NoDup (ids P) -> queued_ids P vs ->
  depth_A fl c (filter (fun m => negb (isV vs m && pe m)) P)
  = depth_A fl c P - Z.of_nat (length (filter (fun m => isV vs m && pe m) P)).
Proof.
  intros ND Q.
  assert (Hcount : forall p, p Queued = true ->
            count_st p (filter (fun m => negb (isV vs m && pe m)) P)
            = count_st p P - Z.of_nat (length (filter (fun m => isV vs m && pe m) P))).
  { intros p Hp. pose proof (count_st_partition p (fun m => isV vs m && pe m) P) as Hpart.
    rewrite (count_st_all p (filter (fun m => isV vs m && pe m) P)) in Hpart; [lia|].
    intros m Hm. apply filter_In in Hm. destruct Hm as [Hm Hv]. apply andb_true_iff in Hv. destruct Hv as [Hv _].
    rewrite (proj1 (st_eqb_eq _ _) (victims_queued vs P m ND Q Hm Hv)). exact Hp. }
  unfold depth_A, active, active_deliv. rewrite !Hcount by reflexivity.
  destruct fl; [rewrite Afun_sub|]; reflexivity.
Qed.

(** the monitor's view of one event whose stored list changed like this:
    [B] before; a sub-list [P] of it (what the prune left); the messages with ids [vs] removed from [P];
    [news] appended *)
Section Bookkeeping.
  Variables (c : cfg) (x : op) (o : oracle) (r : res) (B : list msg) (inP : msg -> bool) (vs : list N) (news : list msg).
  Let P := filter inP B.
  Let e := mkEvent x o r B (filter (fun m => negb (isV vs m)) P ++ news).
  Let pe := prune_eligible c e.
  Hypothesis NDB : NoDup (ids B).
  Hypothesis Hnewfresh : forall n, In n news -> ~ In (m_id n) (ids B).
  Hypothesis Hpe : forall m, In m B -> inP m = false -> pe m = true.

  Lemma bk_view : view e (fun m => if inP m && negb (isV vs m) then Some m else None) news.
  Proof.
    split; cbn [ev_before ev_after e]; [exact NDB | | | exact Hnewfresh].
    - intros m m' _ E. destruct (inP m && negb (isV vs m)); inversion E; subst. apply same_imm_refl.
    - unfold P. rewrite filter_filter_and, apply_pm_as_filter.
      + f_equal. apply filter_ext. intros m. destruct (inP m && negb (isV vs m)); reflexivity.
      + intros m m' _ E. destruct (inP m && negb (isV vs m)); inversion E; reflexivity.
  Qed.

  Lemma bk_removed : removed e = filter (fun m => negb (inP m && negb (isV vs m))) B.
  Proof.
    unfold removed. apply filter_ext_in. intros m Hm. rewrite (view_survivor _ _ _ bk_view m Hm).
    destruct (inP m && negb (isV vs m)); reflexivity.
  Qed.

  Lemma bk_ev : filter (fun m => negb (pe m)) (removed e) = filter (fun m => isV vs m && negb (pe m)) P.
  Proof.
    rewrite bk_removed, filter_filter_and. unfold P. rewrite filter_filter_and. apply filter_ext_in. intros m Hm.
    destruct (inP m) eqn:Ei; cbn [andb negb].
    - destruct (isV vs m); reflexivity.
    - rewrite (Hpe m Hm Ei). reflexivity.
  Qed.

  Lemma bk_base :
    filter (fun m => negb (memN (m_id m) (map m_id (filter pe (removed e))))) B
    = filter (fun m => negb (isV vs m && pe m)) P.
  Proof.
    unfold P. rewrite filter_filter_and. apply filter_ext_in. intros m Hm.
    rewrite bk_removed, filter_filter_and, (memN_ids_filter _ B m NDB Hm).
    destruct (inP m) eqn:Ei; cbn [andb negb].
    - destruct (isV vs m); reflexivity.
    - rewrite (Hpe m Hm Ei). reflexivity.
  Qed.

  Lemma bk_rest q :
    In q (filter (fun m => negb (memN (m_id m) (map m_id (filter (fun m => isV vs m && negb (pe m)) P))))
                 (filter (fun m => negb (isV vs m && pe m)) P)) ->
    In q P /\ isV vs q = false.
  Proof.
    intros H. apply filter_In in H. destruct H as [H1 H2]. apply filter_In in H1. destruct H1 as [Hq H1].
    split; [exact Hq|]. rewrite (memN_ids_filter _ P q (filter_ids_NoDup inP B NDB) Hq) in H2.
    destruct (isV vs q); [|reflexivity]. destruct (pe q); discriminate.
  Qed.
End Bookkeeping.

(** the branch of [c12_event] for an enqueue of at least one message, single or batch *)
Definition c12_body (fl : flavour) (c : cfg) (ins_order : list N) (e : event) : bool :=
      let k := Z.of_nat (length (enq_list (ev_op e))) in
      let pruned := filter (prune_eligible c e) (removed e) in
      let ev := filter (fun m => negb (prune_eligible c e m)) (removed e) in
      let base := filter (fun m => negb (memN (m_id m) (map m_id pruned))) (ev_before e) in
      let a := active base in
      let a' := match fl with
                | Mem => if 0 <? c_deliv_age c then Z.max a (active_deliv base) else a
                | Sql => a
                end in
      let rest := filter (fun m => negb (memN (m_id m) (map m_id ev))) base in
      if (0 <? c_max_depth c) && (c_max_depth c <? a') then true
      else if enq_success e then
        (Z.of_nat (length (filter (insert_ok e) (ev_after e))) =? k)
        && if 0 <? c_max_depth c then
             if c_drop_oldest c then
               forallb queuedb ev
               && (Z.of_nat (length ev) =? Z.max 0 (a' + k - c_max_depth c))
               && forallb (fun v => forallb (fun q => negb (queuedb q)
                                                      || (m_recv v <=? m_recv q)
                                                      || (pos_in (m_id v) ins_order <? pos_in (m_id q) ins_order)) rest) ev
             else (Nat.eqb (length ev) 0) && (a' + k <=? c_max_depth c)
           else Nat.eqb (length ev) 0
      else
        (Nat.eqb (length ev) 0) && (Nat.eqb (length (inserted e)) 0)
        && forallb (fun m => opt_msg_eqb (find_id (m_id m) (ev_after e)) (Some m)) base.

Lemma c12_event_body fl c ins e : enq_list (ev_op e) <> [] -> c12_event fl c ins e = c12_body fl c ins e.
Proof.
  destruct e as [x o r b a]. cbn [ev_op]. intros Hne. destruct x; simpl in Hne; try contradiction; [reflexivity|].
  destruct es; [contradiction | reflexivity].
Qed.

(** [c12_body] holds of an event whose stored list changed as in [Bookkeeping], when [vs] are the victims
    of a successful enqueue as [evict_spec] describes them, or nothing was evicted or stored *)
Lemma c12_core fl c ins x o r B after inP vs news :
  after = filter (fun m => negb (isV vs m)) (filter inP B) ++ news ->
  NoDup (ids B) -> NoDup (ids after) -> fresh_enqueue (mkEvent x o r B after) ->
  (forall m, In m B -> inP m = false -> ~ In (m_id m) (ids after) -> prune_eligible c (mkEvent x o r B after) m = true) ->
  (exists ies, enq_ok x r = true /\ assign_ids (enq_list x) (o_genids o) = Some ies /\ news = mk_news (op_now x) ies
               /\ evict_spec fl c (Z.of_nat (length ies)) (filter inP B) vs)
  \/ (enq_ok x r = false /\ vs = [] /\ news = []) ->
  c12_body fl c ins (mkEvent x o r B after) = true.
Proof.
  intros Eafter NDB NDafter Hfresh Hpe Hcase. subst after.
  set (P := filter inP B) in *.
  set (e := mkEvent x o r B (filter (fun m => negb (isV vs m)) P ++ news)) in *.
  set (pe := prune_eligible c e) in *.
  pose proof (filter_ids_NoDup inP B NDB) as NDP. fold P in NDP.
  assert (Hnewfresh : forall n, In n news -> ~ In (m_id n) (ids B)).
  { destruct Hcase as [[ies [Hok [EA [En _]]]] | [_ [_ En]]]; subst news; [|intros n []].
    intros n Hn. apply in_map_iff in Hn. destruct Hn as [p [En Hp]]. subst n. cbn [mk_msg m_id].
    apply Hfresh; [apply (enq_ok_res_ok x); exact Hok|]. unfold enq_assigned. cbn [ev_op ev_orc e]. rewrite EA. exact Hp. }
  assert (Hvs : NoDup vs /\ queued_ids P vs).
  { destruct Hcase as [[ies [_ [_ [_ Spec]]]] | [_ [Evs _]]]; [split; apply Spec | subst vs; split; [constructor | intros v []]]. }
  destruct Hvs as [NDv Q].
  pose proof (bk_view x o r B inP vs news NDB Hnewfresh) as V. fold P e in V.
  assert (Hpe' : forall m, In m B -> inP m = false -> pe m = true).
  { intros m Hm Hi. apply (Hpe m Hm Hi), (view_gone _ _ _ V m Hm). rewrite Hi. reflexivity. }
  pose proof (bk_ev c x o r B inP vs news NDB Hnewfresh Hpe') as Eev. fold P e pe in Eev.
  pose proof (bk_base c x o r B inP vs news NDB Hnewfresh Hpe') as Ebase. fold P e pe in Ebase.
  unfold c12_body. cbv zeta. fold pe. change (fun m => negb (prune_eligible c e m)) with (fun m => negb (pe m)).
  change (ev_before e) with B. change (ev_op e) with x. rewrite Eev, Ebase.
  set (ev := filter (fun m => isV vs m && negb (pe m)) P).
  set (base := filter (fun m => negb (isV vs m && pe m)) P).
  set (nVp := length (filter (fun m => isV vs m && pe m) P)).
  assert (Hsplit : (nVp + length ev = length vs)%nat).
  { unfold nVp, ev. rewrite (filter_and_split msg (isV vs) pe P). apply victims_length; assumption. }
  match goal with |- context [match fl with Mem => ?A | Sql => ?S end] => set (a' := match fl with Mem => A | Sql => S end) end.
  assert (Ea' : a' = depth_A fl c P - Z.of_nat nVp).
  { unfold nVp. rewrite <- (depth_A_base fl c vs P pe NDP Q). unfold a', depth_A, Afun. destruct fl; reflexivity. }
  destruct ((0 <? c_max_depth c) && (c_max_depth c <? a')) eqn:Hguard; [reflexivity|].
  change (enq_success e) with (enq_ok x r).
  destruct Hcase as [[ies [Hok [EA [En Spec]]]] | [Hok [Evs En]]]; rewrite Hok.
  - pose proof (assign_ids_length _ _ _ EA) as Hlen.
    assert (NDies : NoDup (map fst ies)) by (rewrite En in NDafter; apply (news_ids_NoDup _ _ _ NDafter)).
    apply andb_true_iff. split.
    + apply Z.eqb_eq. rewrite En in V. unfold e at 1 2. cbn [ev_after].
      rewrite (insert_ok_news x o r B _ _ ies V Hok EA NDies). unfold mk_news. rewrite map_length, Hlen. reflexivity.
    + destruct Spec as [_ _ Hcount Hfits Hold].
      destruct (0 <? c_max_depth c) eqn:Emax.
      * destruct (c_drop_oldest c) eqn:Edo; cbn [andb] in Hcount.
        -- apply andb_true_iff. split; [apply andb_true_iff; split|].
           ++ apply forallb_forall. intros v Hv. apply filter_In in Hv. destruct Hv as [Hv Hc].
              apply andb_true_iff in Hc. destruct Hc as [Hc _]. apply (victims_queued vs P v NDP Q Hv Hc).
           ++ apply Z.eqb_eq. rewrite Hlen in Hcount. rewrite Ea'. lia.
           ++ (* oldest first: by received_at *)
              apply forallb_forall. intros v Hv. apply forallb_forall. intros q Hq.
              apply filter_In in Hv. destruct Hv as [Hv Hc]. apply andb_true_iff in Hc. destruct Hc as [Hc _].
              destruct (bk_rest c x o r B inP vs news NDB q Hq) as [HqP HqV].
              destruct (queuedb q) eqn:Qq; [|reflexivity]. cbn [negb orb].
              apply memN_In in Hc. destruct (Hold (m_id v) Hc) as [mv [Hmv [Eid Hmin]]].
              assert (mv = v) by (apply (nodup_ids_inj P); assumption). subst mv.
              rewrite (proj2 (Z.leb_le _ _) (Hmin q HqP Qq (proj1 (memN_false _ _) HqV))). reflexivity.
        -- assert (Hev0 : length ev = 0%nat) by lia. rewrite Hev0. cbn [Nat.eqb andb].
           apply Z.leb_le. assert (nVp = 0%nat) by lia. rewrite Ea', Hlen in *. apply Z.ltb_lt in Emax. specialize (Hfits Emax eq_refl). lia.
      * cbn [andb] in Hcount. assert (Hev0 : length ev = 0%nat) by lia. rewrite Hev0. reflexivity.
  - (* refused: nothing evicted, nothing stored, what the prune left is untouched *)
    subst vs news.
    assert (Hev0 : ev = []) by (apply filter_none; intros y _; reflexivity).
    assert (Hbase : base = P) by (apply filter_all; intros y _; reflexivity).
    rewrite Hev0, Hbase, (view_inserted _ _ _ V). cbn [length Nat.eqb andb].
    apply forallb_forall. intros y Hy. apply filter_In in Hy. destruct Hy as [Hy Hi].
    rewrite (view_find _ _ _ V y Hy), Hi. apply msg_eqb_refl.
Qed.

(** the three outcomes of an enqueue (oracle short of ids; refused; stored) in the form [c12_core] reads *)
Lemma enqueue_bookkeeping fl c s x o s' r :
  enq_list x <> [] -> Inv s -> (fl = Mem -> order_covers s) -> step fl c s x o = (s', r) ->
  prunes x = true /\
  exists inP vs news,
    msgs s' = filter (fun m => negb (isV vs m)) (filter inP (msgs s)) ++ news
    /\ (forall m, In m (msgs s) -> inP m = false -> prune_pm c (op_now x) (o_gone o) s m = None)
    /\ ((exists ies, enq_ok x r = true /\ assign_ids (enq_list x) (o_genids o) = Some ies /\ news = mk_news (op_now x) ies
                     /\ evict_spec fl c (Z.of_nat (length ies)) (filter inP (msgs s)) vs)
        \/ (enq_ok x r = false /\ vs = [] /\ news = [])).
Proof.
  intros Hne I Hcov H.
  assert (Herr : res_ok r = false -> enq_ok x r = false).
  { intros Hr. destruct (enq_ok x r) eqn:E; [apply enq_ok_res_ok in E; congruence | reflexivity]. }
  assert (Hnov : forall l : list msg, l = filter (fun m => negb (isV [] m)) l ++ []).
  { intros l. rewrite app_nil_r, filter_all; [reflexivity | intros y _; reflexivity]. }
  assert (HinP : forall m, In m (msgs s) -> inPf c (op_now x) (o_gone o) s m = false -> prune_pm c (op_now x) (o_gone o) s m = None).
  { intros m _. unfold inPf. destruct (prune_pm c (op_now x) (o_gone o) s m); [discriminate | reflexivity]. }
  destruct (enqueue_shape fl c s x o s' r Hne H) as [Hp Shape]. split; [exact Hp|].
  destruct Shape as [[Em Er] | [[Em [err Er]] | [ies [l2 [EA [Eroom [Em Hok]]]]]]].
  - exists (fun _ => true), [], []. rewrite (filter_all (fun _ => true)) by reflexivity.
    split; [rewrite Em; apply Hnov|]. split; [discriminate|]. right. subst r. auto.
  - exists (inPf c (op_now x) (o_gone o) s), [], []. rewrite <- prune_as_filter.
    split; [rewrite Em; apply Hnov|]. split; [exact HinP|]. right. subst r. auto.
  - pose proof (inv_prune c (op_now x) (o_gone o) s I) as I1.
    destruct (enq_room_evicts fl c _ _ _ l2 (inv_nodup _ _ I1) (fun E => prune_order_covers c _ _ s (Hcov E)) Eroom) as [vs [El2 Spec]].
    exists (inPf c (op_now x) (o_gone o) s), vs, (mk_news (op_now x) ies). rewrite <- prune_as_filter, <- (remove_ids_filter vs), <- El2.
    split; [exact Em|]. split; [exact HinP|]. left. exists ies. auto.
Qed.

Lemma c12_enqueue fl c s x o s' r ins :
  enq_list x <> [] -> Inv s -> (fl = Mem -> order_covers s) -> step fl c s x o = (s', r) ->
  fresh_enqueue (mkEvent x o r (msgs s) (msgs s')) ->
  c12_event fl c ins (mkEvent x o r (msgs s) (msgs s')) = true.
Proof.
  intros Hne I Hcov H Hfresh. rewrite c12_event_body by exact Hne.
  destruct (enqueue_bookkeeping fl c s x o s' r Hne I Hcov H) as [Hpr [inP [vs [news [Eafter [HinP Hcase]]]]]].
  apply (c12_core fl c ins x o r (msgs s) (msgs s') inP vs news Eafter (inv_nodup _ _ I)
           (inv_nodup _ _ (step_inv_eq fl c s x o s' r I H)) Hfresh); [|exact Hcase].
  (* what the prune took, and is gone, is eligible in the monitor's sense *)
  intros m Hm Hi Hno. apply (prune_eligible_holds fl c s x o s' r m I H Hm Hno Hpr).
  destruct (prune_pm_cases c (op_now x) (o_gone o) s m (inv_nodup _ _ I) Hm) as [E | [_ R]]; [|exact R].
  rewrite (HinP m Hm Hi) in E. discriminate.
Qed.
