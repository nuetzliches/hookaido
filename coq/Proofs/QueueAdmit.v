(** C12 - admission by depth and drop policy. *)
From Coq Require Import List ZArith NArith Bool Lia.
From HK Require Import Model.Queue Model.QueueMon Proofs.QueueBase Proofs.QueueInv Proofs.QueueInvStep
  Proofs.QueueStep.
Import ListNotations.
Open Scope Z_scope.

Lemma count_st_app p l1 l2 : count_st p (l1 ++ l2) = count_st p l1 + count_st p l2.
Proof. unfold count_st. rewrite filter_app, app_length, Nat2Z.inj_add. reflexivity. Qed.

Lemma count_st_cons p a l : count_st p (a :: l) = (if p (m_st a) then 1 else 0) + count_st p l.
Proof. unfold count_st. simpl. destruct (p (m_st a)); simpl length; lia. Qed.

Lemma count_news p now (ies : list (N * enq)) :
  p Queued = true -> count_st p (map (fun q => mk_msg now (fst q) (snd q)) ies) = Z.of_nat (length ies).
Proof.
  intros Hp. induction ies as [|a tl IH]; [reflexivity|]. simpl map. rewrite count_st_cons. simpl m_st. rewrite Hp, IH.
  simpl length. lia.
Qed.

(** the messages named by a duplicate-free list of ids of stored messages satisfying [q] are as many as the ids:
    both id lists are duplicate-free and include each other *)
Lemma selected_length (q : msg -> bool) l vs :
  NoDup (ids l) -> NoDup vs -> (forall v, In v vs -> exists m, In m l /\ m_id m = v /\ q m = true) ->
  length (filter (fun m => memN (m_id m) vs && q m) l) = length vs.
Proof.
  intros ND NDv Hex. rewrite <- (map_length m_id). apply Nat.le_antisymm.
  - apply NoDup_incl_length; [apply filter_ids_NoDup; exact ND|].
    intros i Hi. apply in_map_iff in Hi. destruct Hi as [m [<- Hm]]. apply filter_In in Hm.
    destruct Hm as [_ Hm]. apply andb_true_iff in Hm. apply memN_In, Hm.
  - apply NoDup_incl_length; [exact NDv|].
    intros v Hv. destruct (Hex v Hv) as [m [Hm [<- Q]]]. apply in_map, filter_In. split; [exact Hm|].
    rewrite Q, andb_true_r. apply memN_In, Hv.
Qed.

Lemma remove_ids_filter vs l : apply_pm (pm_remove_ids vs) l = filter (fun m => negb (memN (m_id m) vs)) l.
Proof.
  induction l as [|a tl IH]; simpl; [reflexivity|]. unfold pm_remove_ids at 1.
  destruct (memN (m_id a) vs); simpl; rewrite IH; reflexivity.
Qed.

Lemma count_st_without (f : msg -> bool) p l :
  count_st p l = Z.of_nat (length (filter (fun m => f m && p (m_st m)) l)) + count_st p (filter (fun m => negb (f m)) l).
Proof.
  induction l as [|a tl IH]; [reflexivity|]. rewrite count_st_cons, IH. simpl filter.
  destruct (f a); simpl; [destruct (p (m_st a)) | rewrite count_st_cons]; simpl length; lia.
Qed.

Lemma count_remove p l vs :
  NoDup (ids l) -> NoDup vs -> (forall v, In v vs -> exists m, In m l /\ m_id m = v /\ p (m_st m) = true) ->
  count_st p (apply_pm (pm_remove_ids vs) l) = count_st p l - Z.of_nat (length vs).
Proof.
  intros ND NDv Hex. rewrite remove_ids_filter, (count_st_without (fun m => memN (m_id m) vs) p l).
  rewrite (selected_length (fun m => p (m_st m)) l vs ND NDv Hex). lia.
Qed.

Lemma queued_is_active m : queuedb m = true -> is_active (m_st m) = true.
Proof. intros H. rewrite (queuedb_st m H). reflexivity. Qed.

Lemma queued_is_active_deliv m : queuedb m = true -> is_active_deliv (m_st m) = true.
Proof. intros H. rewrite (queuedb_st m H). reflexivity. Qed.

Lemma active_remove_queued l vs :
  NoDup (ids l) -> NoDup vs -> queued_ids l vs -> active (apply_pm (pm_remove_ids vs) l) = active l - Z.of_nat (length vs).
Proof.
  intros ND NDv Q. apply count_remove; [exact ND | exact NDv|].
  intros v Hv. destruct (Q v Hv) as [m [A [B Cq]]]. exists m. split; [exact A|]. split; [exact B | apply queued_is_active; exact Cq].
Qed.

(** what the admission leaves of the pruned queue has room for the [k] new messages: SQLite evicts exactly
    the excess, the memory plan stops as soon as they fit *)
Lemma enq_room_fits fl c k hint s1 l2 :
  NoDup (ids (msgs s1)) -> 0 < c_max_depth c -> enq_room fl c k hint s1 = Some l2 -> active l2 + k <= c_max_depth c.
Proof.
  intros ND Hmax. unfold enq_room. destruct fl.
  - unfold mem_plan. rewrite (proj2 (Z.leb_gt _ _) Hmax).
    assert (Room : forall a ad, mem_full c k a ad = false -> a + k <= c_max_depth c).
    { intros a ad Hf. unfold mem_full in Hf. apply orb_false_iff in Hf. destruct Hf as [Hf _]. apply Z.ltb_ge in Hf. lia. }
    destruct (negb (mem_full c k (active (msgs s1)) (active_deliv (msgs s1)))) eqn:Ef.
    + intros H. injection H as <-. rewrite remove_nil. apply negb_true_iff in Ef. apply (Room _ _ Ef).
    + destruct (negb (c_drop_oldest c)); [discriminate|].
      destruct (mem_plan_loop _ _ _ _ _ _ _ _) as [vs|] eqn:EP; [|discriminate]. intros H. injection H as <-.
      destruct (mem_plan_loop_exact _ _ _ _ _ _ _ _ _ EP (NoDup_nil N)) as [NDv [Q [n [Ln [_ Hf]]]]]; [intros v []|].
      rewrite (active_remove_queued _ vs ND NDv Q). simpl length in Ln. apply Room in Hf. lia.
  - rewrite (proj2 (Z.ltb_lt _ _) Hmax). destruct (c_drop_oldest c).
    + intros H. destruct (sql_make_room_evicts _ _ _ _ _ _ H) as [vs [-> [Q [NDv [Len _]]]]].
      rewrite (active_remove_queued _ vs ND NDv Q). lia.
    + destruct (c_max_depth c <? active (msgs s1) + k) eqn:Ef; [discriminate|]. intros H. injection H as <-.
      apply Z.ltb_ge in Ef. lia.
Qed.

Lemma admitted_within_depth fl c now single es o s s' r :
  Inv s -> step_enqueue fl c now single es o s = (s', r) -> res_ok r = true -> es <> [] ->
  0 < c_max_depth c -> active (msgs s') <= c_max_depth c.
Proof.
  intros I H Hok Hne Hmax. pose proof (inv_nodup _ _ (inv_prune c now (o_gone o) s I)) as ND1.
  destruct (step_enqueue_cases _ _ _ _ _ _ _ _ _ H) as [E | _ _ | e _ | ies l2 _ _ Room _ _];
    try discriminate Hok; [contradiction|].
  simpl msgs. unfold active. rewrite count_st_app, (count_news is_active now ies eq_refl). fold (active l2).
  apply (enq_room_fits fl c _ _ _ l2 ND1 Hmax Room).
Qed.

Lemma count_apply_pm_le p pm l :
  (forall m m', In m l -> pm m = Some m' -> p (m_st m') = true -> p (m_st m) = true) ->
  count_st p (apply_pm pm l) <= count_st p l.
Proof.
  induction l as [|a tl IH]; intros H; [simpl; lia|]. simpl apply_pm.
  assert (Htl : forall m m', In m tl -> pm m = Some m' -> p (m_st m') = true -> p (m_st m) = true)
    by (intros m m' Hm; apply H; right; exact Hm).
  specialize (IH Htl). destruct (pm a) as [a'|] eqn:E.
  - rewrite !count_st_cons. specialize (H a a' (or_introl eq_refl) E).
    destruct (p (m_st a')); destruct (p (m_st a)); try lia; discriminate (H eq_refl).
  - rewrite count_st_cons. destruct (p (m_st a)); lia.
Qed.

Definition raises_active (x : op) : bool :=
  match x with
  | Enqueue _ _ | EnqueueBatch _ _ => true
  | _ => match manage_kind_of x with
         | Some (MRequeue | MResume | MRequeueDead) => true
         | _ => false
         end
  end.

Definition lifts (x : op) : bool :=
  match manage_kind_of x with Some (MRequeue | MResume | MRequeueDead) => true | _ => false end.

Lemma not_raising_not_lifting x : raises_active x = false -> lifts x = false.
Proof. destruct x; try discriminate; intros H; exact H. Qed.

(** the only edges of the machine into an active state from outside are operator requeue / resume *)
Lemma change_active_le c x r m m' :
  raises_active x = false -> change c x r m m' -> is_active (m_st m') = true -> is_active (m_st m) = true.
Proof.
  intros Hr H. apply not_raising_not_lifting in Hr. unfold lifts in Hr. apply change_edge in H. unfold edge_ok in H.
  destruct (m_st m), (m_st m'); simpl; intros Ha; try reflexivity; try discriminate Ha;
    destruct H as [H | H]; try discriminate H; try contradiction; destruct H as [H | H]; rewrite H in Hr; discriminate Hr.
Qed.

Theorem step_active_not_raised fl c s x o s' r :
  Inv s -> raises_active x = false -> step fl c s x o = (s', r) -> active (msgs s') <= active (msgs s).
Proof.
  intros I Hr H.
  assert (He : enq_list x = []) by (destruct x; try discriminate Hr; reflexivity).
  destruct (spec_no_news c x o r _ _ (step_sound fl c s x o s' r I H) He) as [pm [E P]].
  rewrite E. unfold active. apply count_apply_pm_le.
  intros m m' Hm Ep. specialize (P m Hm). rewrite Ep in P. apply (change_active_le c x r m m' Hr P).
Qed.

Lemma prune_active_le c now hint s : active (msgs (prune c now hint s)) <= active (msgs s).
Proof.
  rewrite prune_msgs_eq. unfold active. apply count_apply_pm_le.
  intros m m' _ E. apply prune_pm_same in E. subst. auto.
Qed.

Lemma step_enqueue_active fl c now single es o s :
  Inv s -> 0 < c_max_depth c -> active (msgs s) <= c_max_depth c ->
  active (msgs (fst (step_enqueue fl c now single es o s))) <= c_max_depth c.
Proof.
  intros I Hmax Hle. destruct (step_enqueue fl c now single es o s) as [s' r] eqn:E. simpl.
  destruct (step_enqueue_cases _ _ _ _ _ _ _ _ _ E) as [_ | _ _ | e _ | ies l2 Hne _ _ _ _].
  - exact Hle.
  - exact Hle.
  - pose proof (prune_active_le c now (o_gone o) s). lia.
  - apply (admitted_within_depth fl c now single es o s _ _ I E); auto. destruct single; reflexivity.
Qed.

Theorem step_active_bounded fl c s x o :
  Inv s -> lifts x = false -> 0 < c_max_depth c -> active (msgs s) <= c_max_depth c ->
  active (msgs (fst (step fl c s x o))) <= c_max_depth c.
Proof.
  intros I Hl Hmax Hle.
  assert (Other : raises_active x = false -> active (msgs (fst (step fl c s x o))) <= c_max_depth c).
  { intros Hr. destruct (step fl c s x o) as [s' r] eqn:E. simpl.
    pose proof (step_active_not_raised fl c s x o s' r I Hr E). lia. }
  (* apart from the enqueues, raising the count and lifting it are the same operations *)
  destruct x; try (apply Other; exact Hl); cbn [step]; apply step_enqueue_active; assumption.
Qed.

Theorem active_bounded_along_history fl c s xs :
  Inv s -> 0 < c_max_depth c -> active (msgs s) <= c_max_depth c ->
  Forall (fun xo : op * oracle => lifts (fst xo) = false) xs ->
  active (msgs (snd (run fl c s xs))) <= c_max_depth c.
Proof.
  revert s. induction xs as [|[x o] tl IH]; simpl; intros s I Hmax Hle HF; [exact Hle|].
  inversion HF as [|? ? Hx Htl]; subst. simpl in Hx.
  pose proof (step_inv fl c s x o I) as I1. pose proof (step_active_bounded fl c s x o I Hx Hmax Hle) as B1.
  destruct (step fl c s x o) as [s' r]. simpl in I1, B1. specialize (IH s' I1 Hmax B1 Htl).
  destruct (run fl c s' tl) as [evs sf]. exact IH.
Qed.

(** the victim the memory store plans is an oldest queued message (by received_at) among those the
    order log lists *)
Lemma mem_oldest_min ord l vs best m :
  mem_oldest ord l vs best = Some m ->
  (forall b, best = Some b -> m_recv m <= m_recv b)
  /\ (forall i q, In i ord -> find_id i l = Some q -> queuedb q = true -> ~ In i vs -> m_recv m <= m_recv q).
Proof.
  revert best. induction ord as [|i tl IH]; simpl; intros best H.
  - subst best. split; [intros b E; inversion E; lia | intros i q []].
  - destruct (find_id i l) as [mi|] eqn:F.
    2:{ destruct (IH _ H) as [A B]. split; [exact A|]. intros j q [Hj | Hj] Fq; [subst j; congruence | apply (B j q Hj Fq)]. }
    destruct (queuedb mi && negb (memN i vs)) eqn:Eq.
    2:{ destruct (IH _ H) as [A B]. split; [exact A|]. intros j q [Hj | Hj] Fq Qq Nq; [|apply (B j q Hj Fq Qq Nq)].
        subst j. rewrite F in Fq. inversion Fq; subst q. rewrite Qq in Eq. simpl in Eq. apply negb_false_iff in Eq.
        apply memN_In in Eq. contradiction. }
    destruct best as [b|].
    + destruct (m_recv mi <? m_recv b) eqn:El.
      * apply Z.ltb_lt in El. destruct (IH _ H) as [A B]. specialize (A mi eq_refl).
        split; [intros b0 E; inversion E; subst; lia|].
        intros j q [Hj | Hj] Fq Qq Nq; [subst j; rewrite F in Fq; inversion Fq; subst; exact A | apply (B j q Hj Fq Qq Nq)].
      * apply Z.ltb_ge in El. destruct (IH _ H) as [A B]. specialize (A b eq_refl).
        split; [intros b0 E; inversion E; subst; exact A|].
        intros j q [Hj | Hj] Fq Qq Nq; [subst j; rewrite F in Fq; inversion Fq; subst; lia | apply (B j q Hj Fq Qq Nq)].
    + destruct (IH _ H) as [A B]. specialize (A mi eq_refl).
      split; [intros b0 E; discriminate|].
      intros j q [Hj | Hj] Fq Qq Nq; [subst j; rewrite F in Fq; inversion Fq; subst; exact A | apply (B j q Hj Fq Qq Nq)].
Qed.

(** memory flavour: every stored id is in the order log, so the planned victim is an oldest queued
    message of the whole store *)
Definition order_covers (s : state) : Prop := incl (ids (msgs s)) (order s).

Lemma prune_order_covers c now hint s : order_covers s -> order_covers (prune c now hint s).
Proof.
  unfold order_covers. rewrite prune_msgs_eq, prune_order. intros H i Hi. apply H.
  apply (apply_pm_ids_incl (prune_pm c now hint s) (msgs s)); [apply imm_pres_id_pres; apply prune_pm_imm | exact Hi].
Qed.

Lemma step_enqueue_order_covers c now single es o s :
  order_covers s -> order_covers (fst (step_enqueue Mem c now single es o s)).
Proof.
  intros H. pose proof (prune_order_covers c now (o_gone o) s H) as H1.
  destruct (step_enqueue Mem c now single es o s) as [s' r] eqn:E. simpl.
  destruct (step_enqueue_cases _ _ _ _ _ _ _ _ _ E) as [_ | _ _ | e _ | ies l2 _ _ Room _ _]; try assumption.
  destruct (enq_room_spec _ _ _ _ _ _ Room) as [vs [-> _]].
  unfold order_covers. simpl. intros i Hi. unfold ids in Hi. rewrite map_app in Hi. apply in_app_or in Hi. apply in_or_app.
  destruct Hi as [Hi | Hi].
  - left. apply H1. apply (apply_pm_ids_incl (pm_remove_ids vs)); [auto with qimm | exact Hi].
  - right. rewrite map_map in Hi. exact Hi.
Qed.

Theorem step_order_covers c s x o : Inv s -> order_covers s -> order_covers (fst (step Mem c s x o)).
Proof.
  intros I H. destruct (enq_list x) as [|e0 es0] eqn:He.
  - unfold order_covers. rewrite (proj1 (step_frame Mem c s x o) He).
    destruct (step Mem c s x o) as [s' r] eqn:Es. simpl.
    destruct (spec_no_news c x o r _ _ (step_sound Mem c s x o s' r I Es) He) as [pm [E P]].
    rewrite E. intros i Hi. apply H.
    apply (apply_pm_ids_incl_on pm (msgs s)); [|exact Hi].
    intros y y' Hy Ey. specialize (P y Hy). rewrite Ey in P. apply (change_same_imm c x r y y') in P. destruct P as [A _]. congruence.
  - destruct x; simpl in He; try discriminate; cbn [step]; apply step_enqueue_order_covers; exact H.
Qed.

Theorem order_covers_reachable c xs : order_covers (snd (run Mem c init xs)).
Proof.
  apply (run_invariant Mem c (fun s => Inv s /\ order_covers s)).
  - intros s x o [I H]. split; [apply step_inv | apply step_order_covers]; assumption.
  - split; [apply inv_init | intros i []].
Qed.

