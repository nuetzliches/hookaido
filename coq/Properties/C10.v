(** C10 - Ingress route resolution and channel isolation.
    The statements, each derived from the lemmas of Proofs/PathProofs.v, HostProofs.v and ResolveProofs.v.
    Models: Model/PathClean.v (path.Clean), Model/PathMatch.v (router.MatchPath),
    Model/HostMatch.v (normalizeHost, matchHosts), Model/Resolve.v (resolveIngress,
    allowedMethodsFor, matchers, ingress ServeHTTP no-match branch).
    Non-vacuity: Proofs/C10Examples.v. *)
From Coq Require Import List NArith Bool Lia.
From Coq Require Strings.String.
Import Coq.Strings.String.StringSyntax.
From HK Require Import Model.RBytes Model.PathClean Model.PathMatch Model.HostMatch Model.Resolve
     Proofs.RBytesProofs Proofs.PathProofs Proofs.HostProofs Proofs.ResolveProofs Proofs.C10Examples.
Import ListNotations.
Open Scope N_scope.
Open Scope string_scope.

(** The chosen route is the FIRST one in configuration order whose criteria all hold,
    for every route list, request and address parser. *)
Theorem C10_resolve_first_match : forall parse_addr rs q p r,
  resolve parse_addr rs q p = Some r <->
  exists i, nth_error rs i = Some r /\ criteria parse_addr q p r = true /\
            forall j r', (j < i)%nat -> nth_error rs j = Some r' -> criteria parse_addr q p r' = false.
Proof. exact resolve_first_match. Qed.

(** What "criteria" means: inbound (not outbound/internal), path, host, headers, query,
    remote address and method all hold. *)
Theorem C10_criteria_spec : forall parse_addr q p r,
  criteria parse_addr q p r = true <->
  (r_channel r <> ch_outbound /\ r_channel r <> ch_internal) /\
  match_path p (r_path r) = true /\
  match_hosts (normalize_host (q_host q)) (r_hosts r) = true /\
  match_headers (q_headers q) (r_headers r) (r_header_exists r) = true /\
  match_query (q_query q) (r_query r) (r_query_exists r) = true /\
  match_remote (parse_remote_addr parse_addr (q_remote q)) (r_remote r) = true /\
  match_methods (q_method q) (r_methods r) = true.
Proof.
  intros parse_addr q p r. unfold criteria, criteria_but_method.
  rewrite !andb_true_iff, accepts_ingress_spec. tauto.
Qed.

(** The Allow list of a 405: the methods of the routes that match on everything but the method. *)
Theorem C10_allowed_methods_spec : forall parse_addr rs q p m,
  In m (allowed_methods parse_addr rs q p) <->
  exists r, In r rs /\ criteria_but_method parse_addr q p r = true /\ In m (methods_of r).
Proof.
  intros parse_addr rs q p m. unfold allowed_methods.
  rewrite fold_add_new_In, in_flat_map. setoid_rewrite filter_In. split.
  - intros [[] | [r [[Hi Hc] Hm]]]. exists r. auto.
  - intros [r [Hi [Hc Hm]]]. right. exists r. auto.
Qed.

(** Channel isolation: for every configuration and every request, ingress never resolves
    to a route declared outbound or internal ... *)
Theorem C10_channel_isolation : forall parse_addr rs q p r,
  resolve parse_addr rs q p = Some r -> r_channel r <> ch_outbound /\ r_channel r <> ch_internal.
Proof. exact channel_isolation. Qed.

(** ... and such routes do not even contribute to the Allow header. *)
Theorem C10_allow_isolated : forall parse_addr rs q p m,
  In m (allowed_methods parse_addr rs q p) ->
  exists r, In r rs /\ r_channel r <> ch_outbound /\ r_channel r <> ch_internal /\ In m (methods_of r).
Proof.
  intros parse_addr rs q p m H. apply C10_allowed_methods_spec in H. destruct H as [r [Hi [Hc Hm]]].
  exists r. split; [exact Hi|]. apply cbm_channel in Hc. tauto.
Qed.

(** No route: 404, or 405 + Allow exactly when only the method differs; no effect on the queue. *)
Theorem C10_no_match_no_effect : forall parse_addr (store : Type) pipeline rs q (st : store),
  resolve parse_addr rs q (ingress_request_path (q_url_path q)) = None ->
  let al := allowed_methods parse_addr rs q (ingress_request_path (q_url_path q)) in
  let '(resp, st') := ingress_serve parse_addr store pipeline rs q st in
  st' = st /\
  ((al = [] /\ rs_status resp = 404 /\ rs_allow resp = None) \/
   (al <> [] /\ rs_status resp = 405 /\ rs_allow resp = Some (join comma_space al))).
Proof. exact no_match_no_effect. Qed.

Theorem C10_allowed_methods_nonempty : forall parse_addr rs q p,
  allowed_methods parse_addr rs q p <> [] <->
  exists r, In r rs /\ criteria_but_method parse_addr q p r = true.
Proof.
  intros parse_addr rs q p. rewrite nonempty_has_member. setoid_rewrite C10_allowed_methods_spec. split.
  - intros [m [r [Hi [Hc _]]]]. exists r. split; assumption.
  - intros [r [Hi Hc]]. destruct (proj1 (nonempty_has_member _ _) (methods_of_nonempty r)) as [m Hm].
    exists m, r. auto.
Qed.

Theorem C10_allowed_methods_nodup : forall parse_addr rs q p, NoDup (allowed_methods parse_addr rs q p).
Proof. intros. apply fold_add_new_NoDup. constructor. Qed.

(** A resolved request is handed to the resolved route's pipeline and to nothing else. *)
Theorem C10_match_dispatch : forall parse_addr (store : Type) pipeline rs q (st : store) r,
  resolve parse_addr rs q (ingress_request_path (q_url_path q)) = Some r ->
  ingress_serve parse_addr store pipeline rs q st =
  (let '(code, st') := pipeline r q (ingress_request_path (q_url_path q)) st in
   ({| rs_status := code; rs_allow := None |}, st')).
Proof. intros parse_addr store pipeline rs q st r H. unfold ingress_serve. rewrite H. reflexivity. Qed.

(** Path rule: equal, or a prefix that ends at a segment boundary; "/" matches everything. *)
Theorem C10_match_path_spec : forall p r,
  match_path p r = true <->
  r <> [] /\ (r = [47] \/ p = r \/ exists t, p = r ++ 47 :: t).
Proof. exact match_path_spec. Qed.

Theorem C10_match_path_needs_boundary : forall r c t,
  r <> [47] -> c <> 47 -> match_path (r ++ c :: t) r = false.
Proof.
  intros r c t Hr Hc. apply not_true_is_false. intro E.
  apply match_path_spec in E. destruct E as [_ [H | [H | [t' H]]]].
  - contradiction.
  - rewrite <- (app_nil_r r) in H at 2. apply app_inv_head in H. discriminate.
  - apply app_inv_head in H. injection H as H _. contradiction.
Qed.

(** path.Clean: idempotent; a rooted path stays rooted and consists of elements that are
    non-empty, not ".", not ".." and slash-free - dot segments cannot escape a route prefix. *)
Theorem C10_clean_idempotent : forall p, clean (clean p) = clean p.
Proof. exact clean_idempotent. Qed.

Theorem C10_clean_rooted : forall p, is_rooted p = true -> is_rooted (clean p) = true.
Proof. exact clean_rooted. Qed.

Theorem C10_clean_no_dot_segments : forall p, is_rooted p = true ->
  exists segs, clean p = slash :: join [slash] segs /\ Forall good_seg segs.
Proof.
  intros p H. destruct p as [|c p]; [discriminate|].
  exists (rev (clean_stack true (c :: p))). split.
  - unfold clean. rewrite H. reflexivity.
  - apply Forall_rev. destruct (clean_stack_stable true (c :: p)) as [Hk _].
    exact (Forall_impl good_seg kept_rooted_good Hk).
Qed.

Theorem C10_clean_rooted_segments : forall p, is_rooted p = true ->
  clean p = [slash] \/
  exists segs, segs <> [] /\ Forall good_seg segs /\ split_on slash (clean p) = [] :: segs.
Proof.
  intros p H. destruct (C10_clean_no_dot_segments p H) as [segs [E Hg]].
  destruct segs as [|a l]; [left; exact E|].
  right. exists (a :: l). split; [discriminate|]. split; [exact Hg|].
  rewrite E, split_on_sep, split_join; [reflexivity | discriminate|].
  intros s Hs. rewrite Forall_forall in Hg. apply (Hg s Hs).
Qed.

(** Host rule: exact, "*", or "*.d" for hosts ending in "." ++ d (proper sub-domains only). *)
Theorem C10_match_hosts_spec : forall h al,
  match_hosts h al = true <->
  al = [] \/ (h <> [] /\ exists a, In a al /\ host_pattern_matches a h).
Proof. exact match_hosts_spec. Qed.

Theorem C10_host_wildcard_proper : forall h d,
  match_hosts h [star_dot ++ d] = true <->
  h <> [] /\ (h = star_dot ++ d \/ (d <> [] /\ exists x, h = x ++ 46 :: d)).
Proof. exact host_wildcard_proper. Qed.

Theorem C10_host_wildcard_rejects_apex : forall d, match_hosts d [star_dot ++ d] = false.
Proof.
  intro d. apply not_true_is_false. intro H.
  apply host_wildcard_dot_suffix in H. destruct H as [y H].
  exact (app_cons_not_self _ y d 46 H).
Qed.

Theorem C10_host_wildcard_rejects_lookalike : forall x c d,
  c <> 46 -> match_hosts (x ++ c :: d) [star_dot ++ d] = false.
Proof.
  intros x c d Hc. apply not_true_is_false. intro H.
  apply host_wildcard_dot_suffix in H. destruct H as [y H].
  apply app_cons_inj_tail in H. apply Hc, H.
Qed.

(** Method, header, query and remote-address rules. *)
Theorem C10_match_methods_spec : forall m allowed,
  match_methods m allowed = true <-> m <> [] /\ ((allowed = [] /\ m = m_post) \/ In m allowed).
Proof.
  intros m allowed. unfold match_methods. destruct (is_empty m) eqn:E.
  - apply is_empty_nil in E. split; [discriminate | intros [H _]; contradiction].
  - apply is_empty_false in E. destruct allowed as [|a t].
    + rewrite beq_eq. simpl. intuition.
    + rewrite mem_In. intuition discriminate.
Qed.

Theorem C10_match_headers_spec : forall h expected required,
  match_headers h expected required = true <->
  (forall n, In n required -> header_values n h <> []) /\
  (forall n v, In (n, v) expected -> exists x, In x (header_values n h) /\ header_value_ok v x).
Proof.
  intros h expected required. unfold match_headers. rewrite andb_true_iff.
  rewrite (forallb_iff _ _ (fun n => header_values n h <> [])) by (intro n; apply is_nil_false).
  rewrite (forallb_pairs_iff _ _ _ (fun n v => exists x, In x (header_values n h) /\ header_value_ok v x)).
  - reflexivity.
  - (* a header that carries a value is present *)
    intros n v. cbn [fst snd]. rewrite andb_true_iff, is_nil_false, match_header_values_spec. split.
    + intros [_ H]. exact H.
    + intros [x [Hx Hm]]. split; [intro E; rewrite E in Hx; destruct Hx | exists x; split; assumption].
Qed.

Theorem C10_match_query_spec : forall q expected required,
  match_query q expected required = true <->
  (forall n, In n required -> assoc_present n q = true /\ assoc_values n q <> []) /\
  (forall n v, In (n, v) expected -> assoc_present n q = true /\ In v (assoc_values n q)).
Proof.
  intros q expected required. unfold match_query. rewrite andb_true_iff.
  rewrite (forallb_iff _ _ (fun n => assoc_present n q = true /\ assoc_values n q <> []))
    by (intro n; rewrite andb_true_iff, is_nil_false; reflexivity).
  rewrite (forallb_pairs_iff _ _ _ (fun n v => assoc_present n q = true /\ In v (assoc_values n q)))
    by (intros n v; cbn [fst snd]; rewrite andb_true_iff, mem_In; reflexivity).
  reflexivity.
Qed.

Theorem C10_match_remote_spec : forall a allowed,
  match_remote a allowed = true <->
  allowed = [] \/ exists x p, a = Some x /\ In p allowed /\ prefix_contains p x = true.
Proof.
  intros a allowed. unfold match_remote. destruct allowed as [|p0 t].
  - split; [intros _; left; reflexivity | reflexivity].
  - destruct a as [x|].
    + rewrite existsb_exists. split.
      * intros [p [Hi Hc]]. right. exists x, p. split; [reflexivity | split; assumption].
      * intros [H | [x' [p [Hx [Hi Hc]]]]]; [discriminate|]. inversion Hx; subst. exists p. split; assumption.
    + split; [discriminate|]. intros [H | [x' [p [Hx _]]]]; discriminate.
Qed.

Theorem C10_prefix_contains_spec : forall p a,
  prefix_contains p a = true <->
  ip_zone a = false /\ p_v4 p = ip_v4 a /\
  N.shiftr (ip_bits a) (width (p_v4 p) - p_len p) = N.shiftr (p_addr p) (width (p_v4 p) - p_len p).
Proof.
  intros p a. unfold prefix_contains.
  rewrite !andb_true_iff, negb_true_iff, eqb_true_iff, N.eqb_eq, shiftr_lxor_zero. tauto.
Qed.

Theorem C10_unmap_mapped : forall n z, n < two32 ->
  unmap {| ip_v4 := false; ip_bits := 65535 * two32 + n; ip_zone := z |} =
  {| ip_v4 := true; ip_bits := n; ip_zone := false |}.
Proof.
  intros n z Hn. unfold unmap, is4in6. cbn [ip_v4 ip_bits negb andb].
  assert (E : N.shiftr (65535 * two32 + n) 32 = 65535).
  { rewrite N.shiftr_div_pow2. change (2 ^ 32) with two32.
    rewrite N.div_add_l by (unfold two32; lia). rewrite N.div_small by exact Hn. lia. }
  rewrite E. cbn [N.eqb Pos.eqb]. f_equal.
  rewrite N.add_comm. rewrite N.mod_add by (unfold two32; lia). apply N.mod_small. exact Hn.
Qed.

(** Non-vacuity (Proofs/C10Examples.v): an outbound and an internal route whose paths match are skipped. *)
Theorem C10_example_isolation :
  res (req "POST" "/jobs" "a" "203.0.113.7:1") = 0 /\
  res (req "POST" "/hooks/../jobs/./x" "a" "203.0.113.7:1") = 0 /\
  res (req "PUT" "/hooks/partner/evt" "API.Example.COM:8443" "198.51.100.1:9") = 3.
Proof. exact (conj ex_outbound_not_reachable (conj ex_traversal_into_outbound ex_first_match_wins)). Qed.

Print Assumptions C10_resolve_first_match.
Print Assumptions C10_criteria_spec.
Print Assumptions C10_channel_isolation.
Print Assumptions C10_allow_isolated.
Print Assumptions C10_no_match_no_effect.
Print Assumptions C10_allowed_methods_spec.
Print Assumptions C10_allowed_methods_nonempty.
Print Assumptions C10_allowed_methods_nodup.
Print Assumptions C10_match_dispatch.
Print Assumptions C10_match_path_spec.
Print Assumptions C10_match_path_needs_boundary.
Print Assumptions C10_clean_idempotent.
Print Assumptions C10_clean_rooted.
Print Assumptions C10_clean_no_dot_segments.
Print Assumptions C10_clean_rooted_segments.
Print Assumptions C10_match_hosts_spec.
Print Assumptions C10_host_wildcard_proper.
Print Assumptions C10_host_wildcard_rejects_apex.
Print Assumptions C10_host_wildcard_rejects_lookalike.
Print Assumptions C10_match_methods_spec.
Print Assumptions C10_match_headers_spec.
Print Assumptions C10_match_query_spec.
Print Assumptions C10_match_remote_spec.
Print Assumptions C10_prefix_contains_spec.
Print Assumptions C10_unmap_mapped.
Print Assumptions C10_example_isolation.
