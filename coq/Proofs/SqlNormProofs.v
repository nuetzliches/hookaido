(** The normaliser of Model/SqlNorm.v (used by the static tie of the Postgres store, C13pg), for all token lists,
    all call maps and both dialects.  Pass A is read through [tok_rule_spec], one case per rule of [norm_tok]: every
    token it puts out is a fixed point of it, and the tokens [keep] holds of are those of the raw skeleton after
    placeholder binding and keyword case-folding alone.  Pass B is followed by the induction principle
    [any_in_ind].  Nothing here depends on the generated skeletons (Gen/PgTie.v). *)
From Coq Require Import String Ascii List Bool NArith Lia.
From HK Require Import Model.SqlNorm.
Import ListNotations.
Local Open Scope string_scope.

(** Lower-case letters, upper-case letters and the special characters are three disjoint classes; [up] maps the
    first into the second and moves nothing else. *)

Definition is_upper (c : ascii) : bool :=
  let n := N_of_ascii c in (65 <=? n)%N && (n <=? 90)%N.

Lemma is_lower_code : forall c, is_lower c = true <-> (97 <= N_of_ascii c <= 122)%N.
Proof. intro c. unfold is_lower. cbv zeta. now rewrite andb_true_iff, !N.leb_le. Qed.

Lemma is_upper_code : forall c, is_upper c = true <-> (65 <= N_of_ascii c <= 90)%N.
Proof. intro c. unfold is_upper. cbv zeta. now rewrite andb_true_iff, !N.leb_le. Qed.

Lemma upper_not_lower : forall c, is_upper c = true -> is_lower c = false.
Proof.
  intros c H. apply is_upper_code in H. apply not_true_is_false. rewrite is_lower_code. lia.
Qed.

Lemma up_is_upper : forall c, is_lower c = true -> is_upper (up c) = true.
Proof.
  intros c H. unfold up. rewrite H. apply is_lower_code in H.
  apply is_upper_code. rewrite N_ascii_embedding by lia. lia.
Qed.

Lemma up_not_lower : forall c, is_lower c = false -> up c = c.
Proof. intros c H. unfold up. now rewrite H. Qed.

Lemma up_idem : forall c, up (up c) = up c.
Proof.
  intro c. destruct (is_lower c) eqn:L.
  - apply up_not_lower, upper_not_lower, up_is_upper, L.
  - now rewrite !(up_not_lower c L).
Qed.

Lemma upper_idem : forall s, upper (upper s) = upper s.
Proof. induction s as [|c s IH]; simpl; [reflexivity|]. now rewrite up_idem, IH. Qed.

Lemma special_cases : forall c, is_special c = true -> In c ["?"; "$"; ";"; "#"; """"; "`"]%char.
Proof.
  intros c H. unfold is_special in H.
  repeat (apply orb_true_iff in H; destruct H as [H|H]); apply Ascii.eqb_eq in H; subst c; simpl; tauto.
Qed.

Lemma special_not_letter : forall c, is_special c = true -> is_lower c = false /\ is_upper c = false.
Proof.
  intros c H. apply special_cases in H.
  destruct H as [<-|[<-|[<-|[<-|[<-|[<-|[]]]]]]]; split; reflexivity.
Qed.

Lemma letter_not_special : forall c, is_lower c = true \/ is_upper c = true -> is_special c = false.
Proof.
  intros c H. destruct (is_special c) eqn:S; [|reflexivity].
  destruct (special_not_letter c S). destruct H; congruence.
Qed.

Lemma special_up : forall c, is_special (up c) = is_special c.
Proof.
  intro c. destruct (is_lower c) eqn:L.
  - rewrite (letter_not_special c) by now left. apply letter_not_special. right. now apply up_is_upper.
  - now rewrite (up_not_lower c L).
Qed.

Lemma special_char_facts : forall c, is_lower c = false -> is_upper c = false -> True.
Proof. trivial. Qed.

Lemma mem_In : forall x l, mem x l = true <-> In x l.
Proof.
  induction l as [|y l IH]; simpl; [split; [discriminate|tauto]|].
  rewrite orb_true_iff, IH, String.eqb_eq. split; intros [H|H]; auto.
Qed.

Lemma list_eqb_eq : forall a b, list_eqb a b = true -> a = b.
Proof.
  induction a as [|x a IH]; intros [|y b] H; try discriminate; [reflexivity|].
  simpl in H. apply andb_true_iff in H. destruct H as [H1 H2].
  apply String.eqb_eq in H1. now rewrite H1, (IH b H2).
Qed.

Lemma intersperse_in : forall sep l u, In u (intersperse sep l) -> u = sep \/ In u l.
Proof.
  intros sep l. induction l as [|x l IH]; simpl; [tauto|].
  destruct l as [|y l'].
  - simpl. intros u [H|[]]. auto.
  - intros u [H|[H|H]]; auto. destruct (IH u H) as [E|E]; auto.
Qed.

Definition starts_upper (s : string) : bool :=
  match s with String c _ => is_upper c | EmptyString => false end.

Lemma keywords_start_upper : forall k, In k keywords -> starts_upper k = true.
Proof.
  assert (H : forallb starts_upper keywords = true) by (vm_compute; reflexivity).
  rewrite forallb_forall in H. exact H.
Qed.

(** a token whose first character is not a letter is not a keyword in any case *)
Lemma kw_upper_nonletter : forall c r, is_lower c = false -> is_upper c = false -> kw_upper (String c r) = String c r.
Proof.
  intros c r Hl Hu. unfold kw_upper.
  destruct (mem (upper (String c r)) keywords) eqn:E; [|reflexivity].
  apply mem_In, keywords_start_upper in E. simpl in E.
  rewrite (up_not_lower c Hl) in E. congruence.
Qed.

Lemma kw_upper_idem : forall t, kw_upper (kw_upper t) = kw_upper t.
Proof.
  intro t. unfold kw_upper at 2. destruct (mem (upper t) keywords) eqn:E.
  - unfold kw_upper. rewrite upper_idem, E. reflexivity.
  - unfold kw_upper. rewrite E. reflexivity.
Qed.

(** a token that starts with a special character is neither changed by [kw_upper] nor kept: by its first
    character alone it is no identifier, no literal, no comparison operator and no keyword *)
Lemma special_kw_upper : forall c r, is_special c = true -> kw_upper (String c r) = String c r.
Proof. intros c r H. destruct (special_not_letter c H). now apply kw_upper_nonletter. Qed.

Lemma special_not_kept : forall c r, is_special c = true -> keep (String c r) = false.
Proof.
  intros c r H. apply special_cases in H.
  destruct H as [<-|[<-|[<-|[<-|[<-|[<-|[]]]]]]]; reflexivity.
Qed.

Lemma target_not_kept : forall tg, keep (render_target tg) = false.
Proof. intros [| | |g]; reflexivity. Qed.

Lemma plain_ident_inv : forall s, is_plain_ident s = true ->
  exists c r, s = String c r /\ is_lower c = true /\ kw_upper s = s.
Proof.
  intros [|c r] H; [discriminate|]. exists c, r.
  unfold is_plain_ident in H. rewrite !andb_true_iff, negb_true_iff in H. destruct H as [[L _] K].
  repeat split; [exact L|]. unfold kw_upper. rewrite K. reflexivity.
Qed.

Lemma unquote_cases : forall t, unquote t = t \/ is_plain_ident (unquote t) = true.
Proof.
  intro t. unfold unquote. destruct t as [|q r]; [now left|].
  destruct (strip_suffix (String q "") r) as [inner|]; [|now left].
  destruct (is_plain_ident inner) eqn:E; [now right|now left].
Qed.

Definition stable (cm : callmap) (d : dialect) (u : string) : Prop := norm_tok cm d u = [u].

Lemma word_rule : forall cm d c r, is_special c = false ->
  norm_tok cm d (String c r) = [kw_upper (String c r)] /\ resolve_tok d (String c r) = [String c r].
Proof.
  intros cm d c r S. pose proof S as P. unfold is_special in P. rewrite !orb_false_iff in P.
  destruct P as [[[[[P1 P2] P3] P4] P5] P6].
  assert (P0 : ph_start d c = false) by (destruct d; assumption).
  unfold norm_tok, resolve_tok. now rewrite P0, P3, P4, P5, P6, S.
Qed.

Lemma stable_word : forall cm d c r,
  is_special c = false -> kw_upper (String c r) = String c r -> stable cm d (String c r).
Proof. intros cm d c r S K. unfold stable. now rewrite (proj1 (word_rule cm d c r S)), K. Qed.

Lemma stable_kw_upper : forall cm d c r, is_special c = false -> stable cm d (kw_upper (String c r)).
Proof.
  intros cm d c r S.
  assert (exists c' r', kw_upper (String c r) = String c' r' /\ is_special c' = false) as (c' & r' & E & S').
  { unfold kw_upper. destruct (mem _ keywords); [exists (up c), (upper r) | exists c, r]; split; auto.
    now rewrite special_up. }
  pose proof (kw_upper_idem (String c r)) as I. rewrite E in *. now apply stable_word.
Qed.

Lemma plain_ident_stable : forall cm d s, is_plain_ident s = true -> stable cm d s.
Proof.
  intros cm d s H. destruct (plain_ident_inv s H) as (c & r & -> & L & K).
  apply stable_word; [apply letter_not_special; now left | exact K].
Qed.

Lemma stable_target : forall cm d t, stable cm d (render_target t).
Proof. intros cm d t. unfold stable. destruct t; destruct d; reflexivity. Qed.

(** [inert]: the first character is neither special nor a letter, so that no rule of [norm_tok] and no keyword
    applies.  String literals, [@{..}] arguments and commas - what [bind_arg] puts out - are such tokens. *)
Definition inert (u : string) : bool :=
  match u with
  | String c _ => negb (is_special c || is_lower c || is_upper c)
  | EmptyString => false
  end.

Lemma inert_kw_upper : forall u, inert u = true -> kw_upper u = u.
Proof.
  intros [|c r] H; [discriminate|]. simpl in H. rewrite negb_true_iff, !orb_false_iff in H.
  destruct H as [[_ L] U]. now apply kw_upper_nonletter.
Qed.

Lemma inert_stable : forall cm d u, inert u = true -> stable cm d u.
Proof.
  intros cm d [|c r] H; [discriminate|]. apply stable_word; [|now apply inert_kw_upper].
  simpl in H. rewrite negb_true_iff, !orb_false_iff in H. tauto.
Qed.

Lemma quoted_inert : forall e, is_quoted_lit e = true -> inert e = true.
Proof.
  intros [|c r] H; [discriminate|]. simpl in H. apply Ascii.eqb_eq in H. now subst c.
Qed.

(** a match on a leading ["["], as in [bind_arg], through a property of its two branches: the case analysis on
    the eight bits of the first character is done here, once and on variables *)
Lemma match_bracket : forall (A : Type) (f : string -> A) (d : A) (P : A -> Prop) e,
  (forall t, P (f t)) -> P d -> P (match e with String "[" t => f t | _ => d end).
Proof. intros A f d P e Hf Hd. destruct e as [|[[] [] [] [] [] [] [] []] t]; auto. Qed.

Lemma bind_arg_inert : forall e u, In u (bind_arg e) -> inert u = true.
Proof.
  intros e u. unfold bind_arg. destruct (is_quoted_lit e) eqn:Q.
  { intros [<-|[]]. now apply quoted_inert. }
  assert (D : In u ["@{" ++ norm_arg e ++ "}"] -> inert u = true) by (intros [<-|[]]; reflexivity).
  apply (match_bracket _ _ _ (fun l => In u l -> inert u = true)); [intro t | exact D].
  destruct (strip_suffix "]" t) as [inner|]; [|exact D]. cbv zeta.
  destruct (forallb is_quoted_lit (split_commas "" inner)) eqn:F; [|exact D].
  intro H. apply intersperse_in in H. destruct H as [->|H]; [reflexivity|].
  rewrite forallb_forall in F. now apply quoted_inert, F.
Qed.

Lemma kw_upper_bind_arg : forall e, map kw_upper (bind_arg e) = bind_arg e.
Proof.
  intro e. rewrite <- (map_id (bind_arg e)) at 2. apply map_ext_in.
  intros u H. now apply inert_kw_upper, (bind_arg_inert e).
Qed.

(** What [norm_tok] (first list) and [resolve_tok] (second list) make of a token [t], by the rule of [norm_tok] that
    applies: a bound placeholder; a quoted identifier; the statement terminator; a call; a word; or none. *)
Inductive tok_rule (cm : callmap) (d : dialect) (t : string) : list string -> list string -> Prop :=
| RBind e : tok_rule cm d t (bind_arg e) (bind_arg e)
| RQuote : kw_upper t = t -> tok_rule cm d t [unquote t] [unquote t]
| RDrop : kw_upper t = t -> keep t = false -> tok_rule cm d t [] [t]
| RCall tg : kw_upper t = t -> keep t = false -> tok_rule cm d t [render_target tg] [t]
| RWord c r : t = String c r -> is_special c = false -> tok_rule cm d t [kw_upper t] [t]
| RSame : kw_upper t = t -> tok_rule cm d t [t] [t].

Lemma tok_rule_spec : forall cm d t, tok_rule cm d t (norm_tok cm d t) (resolve_tok d t).
Proof.
  intros cm d [|c r]; [now apply RSame|].
  destruct (is_special c) eqn:S.
  - pose proof (special_kw_upper c r S) as K. pose proof (special_not_kept c r S) as F.
    unfold norm_tok, resolve_tok.
    destruct (ph_start d c).
    { destruct (after_brace (String c r)); [apply RBind | now apply RSame]. }
    destruct (c =? ";")%char eqn:S1.
    { apply Ascii.eqb_eq in S1. subst c. destruct (r =? ""); [now apply RDrop | now apply RSame]. }
    destruct (c =? "#")%char eqn:S2.
    { apply Ascii.eqb_eq in S2. subst c. destruct (call_name (String "#" r)); [now apply RCall | now apply RSame]. }
    destruct ((c =? """")%char || (c =? "`")%char); [now apply RQuote|].
    rewrite S. now apply RSame.
  - destruct (word_rule cm d c r S) as [-> ->]. now apply (RWord _ _ _ c r).
Qed.

Theorem norm_tok_stable : forall cm d t u, In u (norm_tok cm d t) -> stable cm d u.
Proof.
  intros cm d t u H. pose proof (tok_rule_spec cm d t) as V.
  (* where the rule leaves [t] as it is, [E] is the claim *)
  remember (norm_tok cm d t) as out eqn:E. symmetry in E.
  destruct V as [e|K|K F|tg K F|c r -> S|K].
  - now apply inert_stable, (bind_arg_inert e).
  - destruct H as [<-|[]]. destruct (unquote_cases t) as [U|U].
    + rewrite U in E |- *. exact E.
    + now apply plain_ident_stable.
  - destruct H.
  - destruct H as [<-|[]]. apply stable_target.
  - destruct H as [<-|[]]. now apply stable_kw_upper.
  - destruct H as [<-|[]]. exact E.
Qed.

Lemma pass_a_stable_id : forall cm d l, Forall (stable cm d) l -> pass_a cm d l = l.
Proof.
  intros cm d l H. induction H as [|x l Hx _ IH]; [reflexivity|].
  unfold pass_a in *. simpl. rewrite Hx, IH. reflexivity.
Qed.

Lemma pass_a_all_stable : forall cm d l, Forall (stable cm d) (pass_a cm d l).
Proof.
  intros cm d l. apply Forall_forall. intros u H. unfold pass_a in H.
  apply in_flat_map in H. destruct H as (t & _ & H). eapply norm_tok_stable; eauto.
Qed.

(** words that are fixed points by evaluation: a closed list of them is checked with [forallb] *)
Definition fixed_word (t : string) : bool :=
  match t with
  | String c _ => negb (is_special c) && (kw_upper t =? t)
  | EmptyString => false
  end.

Lemma fixed_word_stable : forall cm d t, fixed_word t = true -> stable cm d t.
Proof.
  intros cm d [|c r] H; [discriminate|]. simpl in H.
  rewrite andb_true_iff, negb_true_iff, String.eqb_eq in H. now apply stable_word.
Qed.

Lemma redex_inv : forall x y z, is_any_redex x y z = true -> x = "=" /\ y = "ANY" /\ z = "(".
Proof.
  intros x y z H. unfold is_any_redex in H. now rewrite !andb_true_iff, !String.eqb_eq in H.
Qed.

Lemma not_redex : forall x y z, x <> "=" \/ y <> "ANY" \/ z <> "(" -> is_any_redex x y z = false.
Proof.
  intros x y z H. apply not_true_is_false. intro R. apply redex_inv in R. tauto.
Qed.

(** [x] in front of [l] is not the start of a redex *)
Definition no_redex (x : string) (l : list string) : Prop :=
  forall y z t, l = y :: z :: t -> is_any_redex x y z = false.

Lemma any_in_unfold3 : forall x y z t,
  any_in (x :: y :: z :: t) = if is_any_redex x y z then "IN" :: any_in (z :: t) else x :: any_in (y :: z :: t).
Proof. reflexivity. Qed.

Lemma any_in_redex : forall x y z t,
  is_any_redex x y z = true -> any_in (x :: y :: z :: t) = "IN" :: any_in (z :: t).
Proof. intros x y z t R. now rewrite any_in_unfold3, R. Qed.

Lemma any_in_step : forall x l, no_redex x l -> any_in (x :: l) = x :: any_in l.
Proof.
  intros x [|y [|z t]] H; try reflexivity. now rewrite any_in_unfold3, (H y z t eq_refl).
Qed.

(** induction along the recursion of [any_in] *)
Lemma any_in_ind : forall P : list string -> Prop,
  P [] ->
  (forall x y z t, is_any_redex x y z = true -> P (z :: t) -> P (x :: y :: z :: t)) ->
  (forall x l, no_redex x l -> P l -> P (x :: l)) ->
  forall l, P l.
Proof.
  intros P H0 Hr Hs.
  assert (H : forall l, P l /\ forall x, P (x :: l)); [|intro l; apply H].
  induction l as [|y l [IHl IHyl]].
  - split; [exact H0|]. intro x. apply Hs; [intros ? ? ? [=] | exact H0].
  - split; [apply IHyl|]. intro x. destruct l as [|z t].
    + apply Hs; [intros ? ? ? [=] | apply IHyl].
    + destruct (is_any_redex x y z) eqn:R.
      * apply Hr; [exact R | exact IHl].
      * apply Hs; [intros ? ? ? [= <- <- <-]; exact R | apply IHyl].
Qed.

Lemma any_in_head : forall z t, exists w r, any_in (z :: t) = w :: r /\ (w = z \/ w = "IN").
Proof.
  intros z [|a [|b t]]; [exists z, []; auto | exists z, [a]; auto |].
  rewrite any_in_unfold3. destruct (is_any_redex z a b); eauto.
Qed.

(** rewriting a list does not create a redex with the token in front of it: the second token of a redex is
    ["ANY"] and the third ["("], never the ["IN"] that the rewriting writes *)
Lemma any_in_no_new_redex : forall x l, no_redex x l -> no_redex x (any_in l).
Proof.
  intros x l H w1 w2 t' E. destruct l as [|y [|z t]]; try discriminate E.
  pose proof (H y z t eq_refl) as Hyz.
  destruct t as [|t0 t1]; [injection E as <- <- _; exact Hyz|].
  rewrite any_in_unfold3 in E. destruct (is_any_redex y z t0).
  - injection E as <- _. apply not_redex. right. left. discriminate.
  - destruct (any_in_head z (t0 :: t1)) as (w & r & Ew & Hw). rewrite Ew in E. injection E as <- <- _.
    destruct Hw as [->| ->]; [exact Hyz|]. apply not_redex. right. right. discriminate.
Qed.

Lemma any_in_tokens : forall l u, In u (any_in l) -> u = "IN" \/ In u l.
Proof.
  induction l as [|x y z t R IH|x l R IH] using any_in_ind; intros u H.
  - destruct H.
  - rewrite (any_in_redex _ _ _ _ R) in H. destruct H as [<-|H]; [now left|].
    destruct (IH u H) as [E|E]; [now left | right; now do 2 right].
  - rewrite (any_in_step _ _ R) in H. destruct H as [<-|H]; [right; now left|].
    destruct (IH u H) as [E|E]; [now left | right; now right].
Qed.

Lemma skip_not_kept : forall x l, keep x = false -> filter keep (x :: l) = filter keep l.
Proof. intros x l H. simpl. now rewrite H. Qed.

(** pass B rewrites [=], [ANY] to [IN]: none of the three is kept *)
Lemma any_in_keep : forall l, filter keep (any_in l) = filter keep l.
Proof.
  induction l as [|x y z t R IH|x l R IH] using any_in_ind.
  - reflexivity.
  - rewrite (any_in_redex _ _ _ _ R). apply redex_inv in R. destruct R as (-> & -> & ->).
    rewrite (skip_not_kept "IN"), IH by reflexivity.
    now rewrite (skip_not_kept "="), (skip_not_kept "ANY") by reflexivity.
  - rewrite (any_in_step _ _ R). simpl. now rewrite IH.
Qed.

Lemma norm_tok_guards : forall cm d t,
  filter keep (norm_tok cm d t) = filter keep (map kw_upper (resolve_tok d t)).
Proof.
  intros cm d t. destruct (tok_rule_spec cm d t) as [e|K|K F|tg K F|c r -> S|K]; cbn [map].
  - now rewrite kw_upper_bind_arg.
  - destruct (unquote_cases t) as [U|U].
    + now rewrite U, K.
    + destruct (plain_ident_inv _ U) as (_ & _ & _ & _ & ->). reflexivity.
  - rewrite K. now rewrite skip_not_kept.
  - rewrite K. now rewrite !skip_not_kept by (exact F || apply target_not_kept).
  - reflexivity.
  - now rewrite K.
Qed.

Lemma pass_a_guards : forall cm d l,
  filter keep (pass_a cm d l) = filter keep (map kw_upper (resolve d l)).
Proof.
  intros cm d l. unfold pass_a, resolve. induction l as [|t l IH]; [reflexivity|].
  simpl. rewrite map_app, !filter_app, IH, norm_tok_guards. reflexivity.
Qed.
