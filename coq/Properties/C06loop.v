(** C06 (continued) - the push dispatcher's micro-batch over the queue: every leased message is settled
    exactly once, as its answer prescribes.  Statements, each derived from the lemmas of
    Proofs/PushLoopProofs.v, PushRecordsProofs.v, PushAttemptLogProofs.v, PushCycleProofs.v and PushShapeProofs.v. *)
From Coq Require Import ZArith QArith List Bool NArith Permutation Lia.
From HK Require Import Model.Queue Model.Retry Model.Dispatcher Model.PushLoop Proofs.QueueInv
  Proofs.PushLoopProofs Proofs.PushCycleProofs Proofs.PushRecordsProofs Gen.PushShape Proofs.PushShapeProofs
  Model.Attempts Proofs.AttemptsProofs Proofs.PushAttemptLogProofs.
From HK Require Proofs.DispatcherProofs.
Import ListNotations.
Open Scope Z_scope.

(** * One micro-batch of runRoute (Model/PushLoop.v) - every leased message is settled, once, as prescribed

    Whatever the route's batching (single / batched lease mutations, the store offering batch
    operations or not, any mutation batch size), whichever targets are configured, and wherever in
    the batch the stop channel is seen closed: the store calls the dispatcher issues carry, for
    every message it leased, exactly one settlement - the one its answer and attempt number
    prescribe when it was sent, a retry in a second when the route does not configure its target, a
    hand-back at once when it was not reached before the stop.  (The pinned tree dropped the pending
    settlements of a batch on stop: fix b30c35c.) *)
Theorem C06_micro_batch_settles_every_leased_message_once : forall ub bs mb stop its,
  Permutation (calls_acts (run_items ub bs mb stop its [])) (expected stop its).
Proof. intros ub bs mb stop its. apply (run_items_carries ub bs mb stop its []). Qed.

Theorem C06_micro_batch_never_extends : forall ub bs mb stop its x,
  In x (run_items ub bs mb stop its []) -> kclass (call_kind x) <> 3%nat.
Proof.
  intros ub bs mb stop its x Hx.
  destruct (run_items_carries ub bs mb stop its []) as [_ Kinds].
  apply (in_map call_kind), Kinds, in_map_iff in Hx. destruct Hx as [[k l] [E Hx]].
  rewrite <- E. apply (expected_class stop its k l Hx).
Qed.

(** ... and on the queue (either store flavour, any state satisfying the queue invariant): when the
    calls reach the store while the leases are live, none is refused, every message named by the
    batch ends as [lease_effect] of ITS settlement makes it - delivered / removed after a 2xx, queued
    again from call time + its own back-off, dead with its reason - and every other message is left
    exactly as it was. *)
Theorem C06_micro_batch_on_the_queue : forall fl c s ub bs mb stop its cs,
  Inv s -> map snd cs = run_items ub bs mb stop its [] ->
  NoDup (map it_lease its) ->
  (forall it, In it its -> exists m, In m (msgs s) /\ m_lease m = Some (it_lease it) /\ is_leased m = true
                                     /\ forall t x, In (t, x) cs -> t < m_until m) ->
  let s' := fst (run_calls fl c s cs) in
  forallb settled_ok (snd (run_calls fl c s cs)) = true /\ Inv s'
  /\ (forall m, In m (msgs s) -> (forall it, In it its -> m_lease m <> Some (it_lease it)) ->
                find_id (m_id m) (msgs s') = Some m)
  /\ (forall m k l, In m (msgs s) -> In (k, l) (expected stop its) -> m_lease m = Some l ->
                    exists t, In t (map fst cs) /\ find_id (m_id m) (msgs s') = lease_effect c t k m).
Proof.
  intros fl c s ub bs mb stop its cs I Ecs NDi Hlive.
  pose proof (C06_micro_batch_settles_every_leased_message_once ub bs mb stop its) as P.
  pose proof (run_items_leases ub bs mb stop its) as Pl. rewrite <- Ecs in P, Pl.
  destruct (run_calls_effect fl c cs s I) as [R [I' [Hother Hnamed]]].
  - intros t x Hx. apply (C06_micro_batch_never_extends ub bs mb stop its). rewrite <- Ecs. apply (in_map snd _ _ Hx).
  - apply (Permutation_NoDup (Permutation_sym Pl) NDi).
  - intros t x k l Hx Hkl.
    assert (Hl : In l (map it_lease its)).
    { apply (Permutation_in _ Pl), (in_map snd _ (k, l)), in_flat_map. exists x. split; [apply (in_map snd _ _ Hx) | exact Hkl]. }
    apply in_map_iff in Hl. destruct Hl as [it [<- Hit]].
    destruct (Hlive it Hit) as [m [Hm [Lm [Il Hu]]]]. exists m. repeat split; try assumption. apply (Hu t x Hx).
  - split; [exact R|]. split; [exact I'|]. split.
    + intros m Hm Hn. apply (Hother m Hm). intros l Hl. apply (Permutation_in _ Pl), in_map_iff in Hl.
      destruct Hl as [it [<- Hit]]. apply (Hn it Hit).
    + intros m k l Hm Hexp Lm. apply (Hnamed m k l Hm); [|exact Lm].
      apply (Permutation_in _ (Permutation_sym P) Hexp).
Qed.

(** the settlement of a sent message is the classification of its answer (ties the loop to the table above) *)
Theorem C06_settlement_is_the_classification : forall rc it,
  settle_kind rc it =
  match classify (it_result it) (it_attempt it) (rc_max rc) with
  | AAck => KAck
  | ANack => KNack (delay_ns (rc_base rc) (rc_cap rc) (it_attempt it) (it_draw it) (rc_jitter rc))
  | ADead why => KDead (reason_code why)
  end.
Proof. reflexivity. Qed.

(** non-vacuity: a batch of four on a single-target route whose store batches lease mutations, stopped
    after the second delivery: one AckBatch + one NackBatch (flushed on stop) and two hand-backs; run on
    a queue holding the four leased messages and a bystander *)
Definition ex_rc : retry_cfg := {| rc_max := 2; rc_base := 1000000000; rc_cap := 8000000000; rc_jitter := 0 |}.
Definition ex_items : list item :=
  [ mkItem 11 1 (Some ex_rc) (RStatus 200) 0; mkItem 12 2 (Some ex_rc) (RStatus 503) 0;
    mkItem 13 1 (Some ex_rc) (RStatus 404) 0; mkItem 14 1 None (RStatus 200) 0 ].
Definition ex_msg (i : N) (st : Queue.st) (lease : option N) : msg :=
  mkMsg i 1 1 st 0 1 0 0 0 0 0 lease (match lease with Some _ => 1000 | None => 0 end).
Definition ex_state : state :=
  mkState [ex_msg 1 Leased (Some 11%N); ex_msg 2 Leased (Some 12%N); ex_msg 3 Leased (Some 13%N); ex_msg 4 Leased (Some 14%N); ex_msg 5 Queued None]
          [] None 0 [11; 12; 13; 14]%N.
Example C06_micro_batch_example :
  run_items true true 4 2 ex_items [] =
    [SBatch KAck [11%N]; SBatch (KNack 2000000000) [12%N]; SOne (KNack 0) 13%N; SOne (KNack 0) 14%N]
  /\ map (fun m => (m_id m, m_st m, m_next m)) (msgs (fst (run_calls Sql (mkCfg 0 false 0 0 0 0 0 0) ex_state
        (combine [5; 6; 7; 8] (run_items true true 4 2 ex_items [])))))
     = [(2%N, Queued, 2000000006); (3%N, Queued, 7); (4%N, Queued, 8); (5%N, Queued, 0)].
Proof. vm_compute. split; reflexivity. Qed.

(** * Every attempt is recorded with its outcome - at the level of the micro-batch
    The attempt records of a micro-batch are those of the items that were sent (reached before the stop, target configured), one
    each and in order; a record carries its item's attempt number and answer, and its outcome (and dead reason) is the outcome of
    the very settlement [expected] prescribes for that lease - so with the theorems above: what is recorded is what is done to the
    message.  An item that is not sent (unknown target, not reached) leaves no record; with the distinct leases of one Dequeue no
    lease has two. *)
Theorem C06_micro_batch_records_one_attempt_per_sent_message : forall its stop,
  map fst (run_records stop its) = map it_lease (sent_items stop its).
Proof.
  induction its as [|it tl IH]; intros stop; [reflexivity|].
  destruct stop as [|stop']; [reflexivity|]. cbn [run_records sent_items].
  destruct (it_target it) as [rc|]; [|apply IH].
  destruct (item_record rc it) as [r [E _]]. rewrite E. cbn [map app fst]. f_equal. apply IH.
Qed.

Theorem C06_micro_batch_record_is_the_settlement : forall its stop l r,
  In (l, r) (run_records stop its) ->
  exists it rc, In it its /\ it_lease it = l /\ it_target it = Some rc
    /\ ar_attempt r = it_attempt it /\ ar_result r = it_result it
    /\ In (settle_kind rc it, l) (expected stop its)
    /\ kind_outcome (settle_kind rc it) = Some (ar_outcome r)
    /\ match ar_reason r with
       | Some why => settle_kind rc it = KDead (reason_code why)
       | None => forall x, settle_kind rc it <> KDead x
       end.
Proof.
  intros its stop l r H. rewrite run_records_sent in H. apply in_flat_map in H. destruct H as [it [Hs Hr]].
  destruct (sent_items_spec its stop it Hs) as [Hin [rc [T He]]].
  destruct (item_record rc it) as [r0 [E Hr0]].
  unfold item_records in Hr. rewrite T, E in Hr. destruct Hr as [Hr | []]. injection Hr as <- <-.
  exists it, rc. split; [exact Hin|]. split; [reflexivity|]. split; [exact T|].
  destruct Hr0 as [Ha [Hres Hk]]. split; [exact Ha|]. split; [exact Hres|]. split; [exact He | exact Hk].
Qed.

Theorem C06_micro_batch_unsent_message_has_no_record : forall its stop l,
  ~ In l (map it_lease (sent_items stop its)) -> forall r, ~ In (l, r) (run_records stop its).
Proof.
  intros its stop l H r Hin. apply H. rewrite <- C06_micro_batch_records_one_attempt_per_sent_message.
  apply (in_map fst _ _ Hin).
Qed.

Theorem C06_micro_batch_no_lease_recorded_twice : forall its stop,
  NoDup (map it_lease its) -> NoDup (map fst (run_records stop its)).
Proof.
  intros its stop ND. rewrite C06_micro_batch_records_one_attempt_per_sent_message.
  apply sent_items_leases_nodup, ND.
Qed.

(** non-vacuity: of the four items of the example (stop after two) the first two are sent and recorded - acked / retry -,
    the third is not reached and the fourth has no configured target: no record *)
Example C06_micro_batch_records_example :
  map enc_record (run_records 2 ex_items) = [[11; 1; 2; 0; 200]; [12; 2; 1; 0; 503]]
  /\ map enc_record (run_records 4 ex_items) = [[11; 1; 2; 0; 200]; [12; 2; 1; 0; 503]; [13; 1; 3; 1; 404]].
Proof. vm_compute. split; reflexivity. Qed.

(** ... and the records reach the store's attempt log (Model/Attempts.v, the log C13att is about): the dispatcher hands them to
    RecordAttempt with a blank id, so each is appended, in order; a message that was sent has its attempt in the log under its event id
    and attempt number, whatever is recorded afterwards. *)
Theorem C06_micro_batch_attempts_reach_the_attempt_log : forall event_of route target created stop its log,
  fold_left rec1 (map (att_of_record event_of route target created) (run_records stop its)) log
  = log ++ map (att_of_record event_of route target created) (run_records stop its).
Proof. intros event_of route target created stop its log. apply records_appended. Qed.

Theorem C06_sent_message_attempt_stays_in_the_log : forall event_of route target created stop its log it later,
  NoDup (map it_lease its) ->
  In it (sent_items stop its) ->
  exists a, In a (log_after (fold_left rec1 (map (att_of_record event_of route target created) (run_records stop its)) log) later)
    /\ a_event a = event_of (it_lease it) /\ a_attempt a = it_attempt it.
Proof.
  intros event_of route target created stop its log it later _ Hin.
  destruct (sent_items_spec its stop it Hin) as [_ [rc [T _]]].
  destruct (item_record rc it) as [r [E [Ha _]]].
  exists (att_of_record event_of route target created (it_lease it, r)). split; [|split; [reflexivity | exact Ha]].
  destruct (log_after_ext later (fold_left rec1 (map (att_of_record event_of route target created) (run_records stop its)) log)) as [ext Eext].
  rewrite Eext, records_appended. apply in_or_app. left. apply in_or_app. right. apply in_map.
  rewrite run_records_sent. apply in_flat_map. exists it. split; [exact Hin|].
  unfold item_records. rewrite T, E. left. reflexivity.
Qed.

(** * A whole enqueue/requeue cycle on the queue
    Model/Dispatcher.v's [cycle] assumes that every dequeue increments the attempt by one and that a nack re-queues the
    message while ack / mark-dead end the cycle.  On the queue model this is a theorem: a chain of rounds on message i - a
    Dequeue that hands i out (with whatever else), then the settlement the dispatcher chooses for the answer, applied
    inside the lease, nothing else in between - sees the attempt numbers a+1, a+2, ..., ends exactly where [cycle] says
    with exactly as many sends, and leaves the message delivered (removed when delivered messages are not retained) or
    dead with the reason, its attempt counter at a + sends. *)
Theorem C06_cycle_on_the_queue_is_the_cycle : forall fl c rc i s answers atts s' t,
  cycle_on_queue fl c rc i s answers atts s' t -> forall m,
  Inv s -> state_of i s = Some m ->
  let n := length answers in
  let tr := cycle n rc (m_attempt m + 1) (beh_of answers) (draw_of answers) 0 in
  Inv s'
  /\ atts = map (fun k => m_attempt m + 1 + Z.of_nat k) (seq 0 n)
  /\ snd tr = Some t /\ sends tr = Z.of_nat n
  /\ final_ok c i s' t (m_attempt m + Z.of_nat n).
Proof.
  intros fl c rc i s answers atts s' t H.
  induction H as [s a att s2 R | s a att why s2 R | s a att s2 more atts s3 t R C IH]; intros m I Hm; cbv zeta.
  (* in every case: the first round, and the first step of [cycle] *)
  all: destruct (round_effect fl c rc i a s att _ s2 m I R Hm) as [I2 [-> [Hc F]]].
  all: cbn [length]; rewrite cycle_cons, <- Hc.
  - split; [exact I2|]. split; [cbn; rewrite Z.add_0_r; reflexivity|].
    split; [reflexivity|]. split; [reflexivity | exact F].
  - split; [exact I2|]. split; [cbn; rewrite Z.add_0_r; reflexivity|].
    split; [reflexivity|]. split; [reflexivity | exact F].
  - destruct F as [m2 [F2 A2]]. destruct (IH m2 I2 F2) as [I3 [Eatts [Et [Es Ff]]]]. rewrite A2 in *.
    destruct (cycle (length more) rc (m_attempt m + 1 + 1) (beh_of more) (draw_of more) 0) as [l t0].
    unfold sends in *. cbn [snd fst] in *. split; [exact I3|]. split; [|split; [exact Et|split]].
    + cbn [seq map]. f_equal; [lia|]. rewrite Eatts, <- seq_shift, map_map. apply map_ext. intros k. lia.
    + rewrite app_length. cbn [attempt_records length]. lia.
    + replace (m_attempt m + Z.of_nat (S (length more))) with (m_attempt m + 1 + Z.of_nat (length more)) by lia. exact Ff.
Qed.

Theorem C06_cycle_on_the_queue_sends_bounded : forall fl c rc i s answers atts s' t m,
  cycle_on_queue fl c rc i s answers atts s' t -> Inv s -> state_of i s = Some m ->
  Z.of_nat (length answers) <= Z.max 1 (rc_max rc + 1 - m_attempt m).
Proof.
  intros fl c rc i s answers atts s' t m H I Hm.
  destruct (C06_cycle_on_the_queue_is_the_cycle fl c rc i s answers atts s' t H m I Hm) as [_ [_ [_ [Es _]]]].
  rewrite <- Es. eapply Z.le_trans; [apply DispatcherProofs.cycle_sends_le|]. lia.
Qed.

Definition ex_rc2 : retry_cfg := {| rc_max := 2; rc_base := 1000000000; rc_cap := 8000000000; rc_jitter := 0 |}.
Definition ex_s0 : state :=
  mkState [mkMsg 7 1 1 Queued 0 0 0 0 0 0 0 None 0; mkMsg 8 1 1 Queued 0 0 0 0 0 0 0 None 0] [7; 8]%N None 0 [].
Definition ex_cfg : cfg := mkCfg 0 false 0 0 0 0 0 0.
(** non-vacuity: 503 then 200 on a memory queue holding a second ready message; the bystander stays queued *)
Example C06_cycle_on_the_queue_example : exists s', cycle_on_queue Mem ex_cfg ex_rc2 7 ex_s0
    [mkAnswer (RStatus 503) 0; mkAnswer (RStatus 200) 0] [1; 2] s' TDelivered /\ state_of 7 s' = None /\ (exists m8, state_of 8 s' = Some m8 /\ m_st m8 = Queued).
Proof.
  eexists. split.
  - eapply cq_retry.
    + change ANack with (classify (an_result (mkAnswer (RStatus 503) 0)) 1 (rc_max ex_rc2)).
      eapply (round_intro Mem ex_cfg ex_rc2 7 (mkAnswer (RStatus 503) 0) ex_s0 10 None None 1 0 (mkOracle [(7, 100)]%N [] [] []) _ _ 100%N 1 _ 11 (mkOracle [] [] [] [])).
      * vm_compute. reflexivity.
      * left. reflexivity.
      * vm_compute. reflexivity.
      * vm_compute. reflexivity.
    + eapply cq_ack.
      change AAck with (classify (an_result (mkAnswer (RStatus 200) 0)) 2 (rc_max ex_rc2)).
      eapply (round_intro Mem ex_cfg ex_rc2 7 (mkAnswer (RStatus 200) 0) _ 2000000000 None None 1 0 (mkOracle [(7, 101)]%N [] [] []) _ _ 101%N 2 _ 2000000001 (mkOracle [] [] [] [])).
      * vm_compute. reflexivity.
      * left. reflexivity.
      * vm_compute. reflexivity.
      * vm_compute. reflexivity.
  - vm_compute. split; [reflexivity|]. eexists. split; reflexivity.
Qed.

(** * The tie of the loop model to the source: regenerated from internal/dispatcher/push.go on every run *)
Theorem C06_run_route_source_shape : ps_shape_ok = true
  /\ ps_missing_target_backoff_ns = missing_target_backoff
  /\ ps_batch_iff_single_target = true /\ ps_flush_when_ge_mutation_batch = true /\ ps_final_flush = true
  /\ ps_stop_branch_calls = expected_stop_branch_calls.
Proof. exact (conj push_shape_understood push_shape_is_the_models). Qed.

Print Assumptions C06_micro_batch_settles_every_leased_message_once.
Print Assumptions C06_micro_batch_never_extends.
Print Assumptions C06_micro_batch_on_the_queue.
Print Assumptions C06_settlement_is_the_classification.
Print Assumptions C06_micro_batch_records_one_attempt_per_sent_message.
Print Assumptions C06_micro_batch_record_is_the_settlement.
Print Assumptions C06_micro_batch_unsent_message_has_no_record.
Print Assumptions C06_micro_batch_no_lease_recorded_twice.
Print Assumptions C06_micro_batch_attempts_reach_the_attempt_log.
Print Assumptions C06_sent_message_attempt_stays_in_the_log.
Print Assumptions C06_cycle_on_the_queue_is_the_cycle.
Print Assumptions C06_cycle_on_the_queue_sends_bounded.
Print Assumptions C06_run_route_source_shape.
