(** The ingress handler of Model/Ingress.v (C08) read as a decision list: [serve_elim] is the one lemma every statement about
    [serve] goes through; [enqueue_all_spec] describes the fan-out loop. *)
From Coq Require Import ZArith List Bool NArith Lia.
From HK Require Import Model.NonceCache Model.Hmac Model.BasicAuth Model.Ingress
  Proofs.NonceCacheProofs.
Import ListNotations.
Open Scope Z_scope.

Definition basic_valid (users : list (bytes * bytes)) (h : headers) : Prop :=
  exists u p, parse_basic (header_get authorization_name h) = Some (u, p) /\ lookup_user u users = Some p.

Lemma basic_verify_spec users h :
  users <> [] -> (basic_verify users h = true <-> basic_valid users h).
Proof.
  intros Hne. unfold basic_verify, basic_valid. destruct users as [|u0 tl]; [congruence|].
  destruct (parse_basic (header_get authorization_name h)) as [[u p]|].
  - destruct (lookup_user u (u0 :: tl)) as [want|] eqn:L.
    + split.
      * intros E. apply beqb_eq in E. subst. exists u, want. auto.
      * intros (u' & p' & E1 & E2). inversion E1; subst. rewrite L in E2. inversion E2; subst. apply beqb_refl.
    + split; [discriminate|]. intros (u' & p' & E1 & E2). inversion E1; subst. congruence.
  - split; [discriminate|]. intros (u' & p' & E1 & _). discriminate.
Qed.

Lemma forward_status_zero a : forward_status a = 0 <-> exists copied, a = F2xx copied.
Proof.
  destruct a; simpl; split; try discriminate; try (intros [x H]; discriminate); eauto.
Qed.

Lemma forward_status_not_202 a : forward_status a <> 202.
Proof. destruct a; discriminate. Qed.

(** the loop goes on to the next target unless the store's answer for this one is a refusal
    (a missing answer counts as success) *)
Lemma enqueue_all_cons t tl res :
  enqueue_all (t :: tl) res =
  if nth 0 res true then let '(ok, done) := enqueue_all tl (List.tl res) in (ok, t :: done)
  else (false, []).
Proof. destruct res as [|[|] rtl]; reflexivity. Qed.

Lemma enqueue_all_spec targets res :
  let '(ok, done) := enqueue_all targets res in
  (ok = true -> done = targets) /\
  (ok = false -> exists k, done = firstn k targets /\ (k < length targets)%nat /\ nth k res true = false).
Proof.
  revert res. induction targets as [|t tl IH]; intros res.
  - split; [reflexivity | discriminate].
  - rewrite enqueue_all_cons. destruct (nth 0 res true) eqn:E0.
    + (* the answer is that of the rest of the loop, one target later *)
      specialize (IH (List.tl res)). destruct (enqueue_all tl (List.tl res)) as [ok done].
      destruct IH as [I1 I2]. split.
      * intros H. rewrite (I1 H). reflexivity.
      * intros H. destruct (I2 H) as (k & E & L & N). exists (S k).
        split; [simpl; congruence|]. split; [simpl; lia|].
        destruct res; [destruct k|]; exact N.
    + split; [discriminate|]. intros _. exists 0%nat.
      split; [reflexivity|]. split; [simpl; lia | exact E0].
Qed.

Section Crypto.
Variable sha256 : bytes -> bytes.
Variable hmac : bytes -> bytes -> bytes.
Notation serve := (serve sha256 hmac).
Notation verify := (verify sha256 hmac).

Definition status_of (x : Z * list bytes * cache) : Z := fst (fst x).
Definition enq_of (x : Z * list bytes * cache) : list bytes := snd (fst x).

Definition targets_of (rc : route_cfg) : list bytes :=
  match rc_targets rc with [] => [default_target] | ts => ts end.

(** every authentication stage the route declares was passed *)
Definition authenticated (rc : route_cfg) (c : cache) (now : Z) (r : hreq) (o : oracle) : Prop :=
  (rc_basic rc <> [] -> basic_valid (rc_basic rc) (q_headers r)) /\
  (rc_forward rc = true -> exists copied, o_fwd o = F2xx copied) /\
  (forall cfg, rc_hmac rc = Some cfg -> fst (verify cfg c now r) = true).

(** oracle validity: a backpressure refusal never carries the success status
    (runtimeState.allowIngressEnqueue returns 503) *)
Definition bp_valid (o : oracle) : Prop := forall st, o_backpressure o = Some st -> st <> 202.

(** The handler read as a decision list, as an elimination rule: whatever holds of every refusal
    (some guard turns the request away: nothing is enqueued, the status is that guard's and never
    202) and of every answer of the enqueue loop after all the authentication stages the route
    declares were passed, holds of the handler's answer.  The cache returned is the one passed in
    unless the route has an HMAC stage. *)
Lemma serve_elim (P : Z * list bytes * cache -> Prop) rc c now r o :
  (forall st c', (bp_valid o -> st <> 202) -> (rc_hmac rc = None -> c' = c) -> P (st, [], c')) ->
  (forall c', authenticated rc c now r o -> (rc_hmac rc = None -> c' = c) ->
     P (let '(ok, done) := enqueue_all (targets_of rc) (o_enq o) in
        (if ok then 202 else 503, done, c'))) ->
  P (serve (RRoute rc) c now r o).
Proof.
  intros Refused Passed. unfold Ingress.serve.
  destruct (o_rate_ok o); cbn [negb]; [|apply Refused; [discriminate | reflexivity]].
  destruct (o_backpressure o) as [st|] eqn:B.
  { apply Refused; [|reflexivity]. intros BP.
    destruct (st <=? 0); [discriminate | exact (BP st B)]. }
  destruct (basic_verify (rc_basic rc) (q_headers r)) eqn:BV; cbn [negb];
    [|apply Refused; [discriminate | reflexivity]].
  destruct (Z.of_nat (length (q_body r)) >? rc_max_body rc); [apply Refused; [discriminate | reflexivity]|].
  destruct (o_body_err o); [apply Refused; [discriminate | reflexivity]|].
  destruct ((if rc_forward rc then forward_status (o_fwd o) else 0) =? 0) eqn:FS; cbn [negb].
  2: { apply Refused; [|reflexivity]. intros _.
       destruct (rc_forward rc); [apply forward_status_not_202 | discriminate]. }
  destruct (match rc_hmac rc with None => (true, c) | Some cfg => verify cfg c now r end)
    as [hok c1] eqn:V.
  assert (C1 : rc_hmac rc = None -> c1 = c) by (intros N; rewrite N in V; congruence).
  destruct hok; cbn [negb]; [|apply Refused; [discriminate | exact C1]].
  destruct (o_hdr_fit o); cbn [negb]; [|apply Refused; [discriminate | exact C1]].
  apply Passed; [|exact C1]. split; [|split].
  - intros Hne. apply basic_verify_spec; assumption.
  - intros F. rewrite F in FS. apply forward_status_zero, Z.eqb_eq, FS.
  - intros cfg E. rewrite E in V. rewrite V. reflexivity.
Qed.

(** * Fail closed (Properties/C08.v says what it claims): a refusal enqueues nothing, and the enqueue
    loop answers other than 202 only when the store refused a target, after every authentication
    stage was passed. *)
Theorem fail_closed rc c now r o :
  let res := serve (RRoute rc) c now r o in
  status_of res <> 202 ->
  enq_of res = [] \/
  (status_of res = 503 /\ authenticated rc c now r o /\
   exists k, enq_of res = firstn k (targets_of rc) /\ (0 < k < length (targets_of rc))%nat /\ nth k (o_enq o) true = false).
Proof.
  cbn zeta. apply serve_elim; [left; reflexivity|]. intros c' A _.
  pose proof (enqueue_all_spec (targets_of rc) (o_enq o)) as ES.
  destruct (enqueue_all (targets_of rc) (o_enq o)) as [ok done].
  destruct ok; [intros H; contradiction H; reflexivity | intros _].
  destruct (proj2 ES eq_refl) as (k & Ek & Lk & Nk). unfold enq_of, status_of. cbn [fst snd].
  destruct k as [|k]; [left; exact Ek|].
  right. split; [reflexivity|]. split; [exact A|].
  exists (S k). repeat split; auto; lia.
Qed.

(** * Statuses of authentication failures.  [reaches_auth]: the request is not turned away earlier
    for a reason that has nothing to do with authentication (rate limit, backpressure). *)
Definition reaches_auth (o : oracle) : Prop := o_rate_ok o = true /\ o_backpressure o = None.
Definition body_ok (rc : route_cfg) (r : hreq) (o : oracle) : Prop :=
  Z.of_nat (length (q_body r)) <= rc_max_body rc /\ o_body_err o = false.

(** what is left of the handler once Basic auth and the body read are behind it *)
Lemma serve_after_body rc c now r o :
  reaches_auth o -> basic_verify (rc_basic rc) (q_headers r) = true -> body_ok rc r o ->
  serve (RRoute rc) c now r o =
  let fwd := if rc_forward rc then forward_status (o_fwd o) else 0 in
  if negb (fwd =? 0) then (fwd, [], c) else
  let '(hok, c1) := match rc_hmac rc with
                    | None => (true, c)
                    | Some cfg => verify cfg c now r
                    end in
  if negb hok then (401, [], c1) else
  if negb (o_hdr_fit o) then (413, [], c1) else
  let '(ok, done) := enqueue_all (targets_of rc) (o_enq o) in
  (if ok then 202 else 503, done, c1).
Proof.
  intros [R1 R2] BV [B1 B2]. unfold Ingress.serve. rewrite R1, R2, BV, B2.
  destruct (Z.gtb_spec (Z.of_nat (length (q_body r))) (rc_max_body rc)); [lia | reflexivity].
Qed.

Theorem cache_only_by_hmac rc c now r o :
  rc_hmac rc = None -> snd (serve (RRoute rc) c now r o) = c.
Proof.
  intros H. apply serve_elim.
  - intros st c' _ Hc. exact (Hc H).
  - intros c' _ Hc. destruct (enqueue_all _ _). exact (Hc H).
Qed.

End Crypto.
